(* C04 — definitions and proofs: the abstract semantics that [pden], [is_model], [den] of
   Functors/Program.v are read in, the predicate [old], and the theorems about them (nothing is
   proved about the executable model of MakeAll: Functors/Exec.v checks its output per instance).
   The semantics of a group of rule bodies is a Section variable [gsem] with two Section
   hypotheses (no global axiom):
     gsem_local  : gsem bs e depends on e only at the predicates occurring in bs;
     gsem_rename : renaming the predicate occurrences of bs by f is the same as reading the
                   environment through f.
   Both hold for any rule language whose meaning is compositional in the denotations of the
   predicate occurrences (see the free semantics of Functors/Exec.v, ex_laws_satisfiable in
   Props/C04.v). *)
From Coq Require Import List Arith NArith Lia.
Import ListNotations.
From LV Require Import Functors.Program.

Section Laws.
  Variable rel : Type.
  Variable ext : pred -> rel.
  Variable gsem : list rbody -> (pred -> rel) -> rel.
  Hypothesis gsem_local : forall bs e1 e2,
    (forall b u, In b bs -> In u (fst b) -> e1 u = e2 u) -> gsem bs e1 = gsem bs e2.
  Hypothesis gsem_rename : forall bs f e,
    gsem (map (ren_body f) bs) e = gsem bs (fun u => e (f u)).

  Notation pden := (pden rel ext gsem).
  Notation is_model := (is_model rel ext gsem).
  Notation pden_ov := (pden_ov rel ext gsem).
  Notation is_model_ov := (is_model_ov rel ext gsem).
  Notation den := (den rel ext gsem).

  Lemma in_rules_of : forall P p r, In r (rules_of P p) <-> In r P /\ head r = p.
  Proof.
    intros. unfold rules_of. rewrite filter_In. rewrite N.eqb_eq. tauto.
  Qed.

  Lemma in_bodies : forall P p b, In b (bodies P p) -> exists r, In r P /\ head r = p /\ rb r = b.
  Proof.
    unfold bodies. intros P p b H. apply in_map_iff in H. destruct H as [r [Hb Hr]].
    apply in_rules_of in Hr. exists r. tauto.
  Qed.

  Lemma bodies_heads : forall X p, bodies X p <> [] -> In p (heads X).
  Proof.
    intros X p H. destruct (bodies X p) as [|b l] eqn:E; [congruence|].
    destruct (in_bodies X p b) as [r [Hr [<- _]]]; [rewrite E; now left|]. now apply in_map.
  Qed.

  Lemma rules_of_nil : forall X p, ~ In p (heads X) -> rules_of X p = [].
  Proof.
    intros X p H. destruct (rules_of X p) eqn:E; [reflexivity|]. destruct H.
    apply bodies_heads. unfold bodies. now rewrite E.
  Qed.

  Lemma bodies_app : forall P X p, bodies (P ++ X) p = bodies P p ++ bodies X p.
  Proof. intros. unfold bodies, rules_of. rewrite filter_app, map_app. reflexivity. Qed.

  Lemma bodies_app_old : forall P X p, ~ In p (heads X) -> bodies (P ++ X) p = bodies P p.
  Proof.
    intros P X p H. rewrite bodies_app. unfold bodies at 2. rewrite (rules_of_nil X p H). apply app_nil_r.
  Qed.

  Lemma pden_bodies : forall P1 P2 E p, bodies P1 p = bodies P2 p -> pden P1 E p = pden P2 E p.
  Proof. intros P1 P2 E p H. unfold Program.pden. now rewrite H. Qed.

  Lemma pden_local : forall P e1 e2 p,
    (forall r u, In r P -> head r = p -> In u (uses r) -> e1 u = e2 u) ->
    pden P e1 p = pden P e2 p.
  Proof.
    intros P e1 e2 p H. unfold Program.pden.
    destruct (bodies P p) eqn:Hb; [reflexivity|].
    apply gsem_local. intros b u Hin Hu. rewrite <- Hb in Hin.
    apply in_bodies in Hin. destruct Hin as [r0 [Hr [Hh <-]]]. exact (H r0 u Hr Hh Hu).
  Qed.

  Lemma pden_app_old : forall P X E p, ~ In p (heads X) -> pden (P ++ X) E p = pden P E p.
  Proof. intros. now apply pden_bodies, bodies_app_old. Qed.

  Lemma pden_renamed : forall P1 P2 f E p q, bodies P1 q <> [] ->
    bodies P2 p = map (ren_body f) (bodies P1 q) -> pden P2 E p = pden P1 (fun u => E (f u)) q.
  Proof.
    intros P1 P2 f E p q Hne Hb. unfold Program.pden. rewrite Hb.
    destruct (bodies P1 q) as [|b l]; [congruence|]. exact (gsem_rename (b :: l) f E).
  Qed.

  Section Ranked.
    Variable rk : pred -> nat.
    Variable P : program.
    Hypothesis Hrk : ranked rk P.

    (* induction along the use relation of an acyclic program; the premise has the shape of the
       premise of pden_local *)
    Lemma ranked_ind : forall Q : pred -> Prop,
      (forall p, (forall r u, In r P -> head r = p -> In u (uses r) -> Q u) -> Q p) -> forall p, Q p.
    Proof.
      intros Q step. apply (induction_ltof1 _ rk). intros p IH. apply step.
      intros r u Hr <- Hu. apply IH, (Hrk r Hr u Hu).
    Qed.

    (* The meaning of a predicate is determined by its own definition and those of the predicates
       it depends on; only P has to be acyclic (the second program may be cyclic elsewhere). *)
    Theorem meaning_local : forall P2 s1 b1 E1 s2 b2 E2,
      is_model_ov P s1 b1 E1 -> is_model_ov P2 s2 b2 E2 ->
      forall p,
      (forall x, x = p \/ Reach P p x ->
         bodies P2 x = bodies P x /\ option_map b1 (lookup s1 x) = option_map b2 (lookup s2 x)) ->
      E1 p = E2 p.
    Proof using gsem_local Hrk.
      intros P2 s1 b1 E1 s2 b2 E2 H1 H2. induction p as [p IH] using ranked_ind. intro Hag.
      destruct (Hag p (or_introl eq_refl)) as [Hb Hs]. rewrite (H1 p), (H2 p). unfold Program.pden_ov.
      destruct (lookup s1 p), (lookup s2 p); try discriminate Hs.
      - now injection Hs.
      - rewrite (pden_bodies P2 P _ _ Hb). apply pden_local. intros r u Hr <- Hu.
        apply (IH r u Hr eq_refl Hu). intros x Hx. apply Hag. right.
        destruct Hx as [->|Hx]; [eapply Reach1|eapply ReachS]; eauto.
    Qed.

    (* the meaning of p under a redefinition depends only on the bindings of p itself and of the
       predicates p depends on: this is what makes CallKey a sound cache key *)
    Theorem ov_relevant : forall s1 b1 E1 s2 b2 E2,
      is_model_ov P s1 b1 E1 -> is_model_ov P s2 b2 E2 ->
      forall p,
      (forall x, x = p \/ Reach P p x -> option_map b1 (lookup s1 x) = option_map b2 (lookup s2 x)) ->
      E1 p = E2 p.
    Proof using gsem_local Hrk.
      intros s1 b1 E1 s2 b2 E2 H1 H2 p Hp. apply (meaning_local P s1 b1 E1 s2 b2 E2 H1 H2).
      intros x Hx. split; [reflexivity|apply Hp, Hx].
    Qed.

    Lemma model_ov_unique : forall s base E1 E2,
      is_model_ov P s base E1 -> is_model_ov P s base E2 -> forall p, E1 p = E2 p.
    Proof using gsem_local Hrk.
      intros s base E1 E2 H1 H2 p. now apply (ov_relevant s base E1 s base E2).
    Qed.

    Lemma den_stable : forall d n m p, rk p < n -> rk p < m -> den d n P p = den d m P p.
    Proof.
      intros d. induction n; intros m p Hn Hm; [lia|]. destruct m; [lia|]. simpl.
      apply pden_local. intros r u Hr Hh Hu. pose proof (Hrk r Hr u Hu). subst p.
      apply IHn; lia.
    Qed.

    Lemma model_exists : forall d, is_model P (fun p => den d (S (rk p)) P p).
    Proof.
      intros d p. simpl. apply pden_local. intros r u Hr Hh Hu.
      pose proof (Hrk r Hr u Hu). subst p.
      change (pden P (den d (rk u) P) u) with (den d (S (rk u)) P u).
      apply den_stable; lia.
    Qed.

    (* a program is itself under the empty redefinition ([is_model P E] and [is_model_ov P [] b E]
       are convertible) *)
    Lemma model_unique : forall E1 E2, is_model P E1 -> is_model P E2 -> forall p, E1 p = E2 p.
    Proof using gsem_local Hrk. intros E1 E2. exact (model_ov_unique [] E1 E1 E2). Qed.

    Theorem ov_unaffected : forall s base E Es,
      is_model P E -> is_model_ov P s base Es ->
      forall p, lookup s p = None -> (forall a, lookup s a <> None -> ~ Reach P p a) -> Es p = E p.
    Proof using gsem_local Hrk.
      intros s base E Es H Hs p Hl Hun. apply (ov_relevant s base Es [] base E Hs H).
      intros x Hx. cbn [lookup option_map].
      destruct (lookup s x) eqn:El; [|reflexivity].
      destruct Hx as [->|Hx]; [congruence|]. destruct (Hun x); [congruence|assumption].
    Qed.

    (* [old X x]: x is not defined by the added rules X and does not depend on anything they define *)
    Definition old (X : program) (x : pred) : Prop :=
      ~ In x (heads X) /\ forall h, In h (heads X) -> ~ Reach P x h.

    Theorem conservative : forall X E E',
      is_model P E -> is_model (P ++ X) E' -> forall p, old X p -> E' p = E p.
    Proof using gsem_local Hrk.
      intros X E E' H H' p [Hp Hre]. symmetry. apply (meaning_local (P ++ X) [] E E [] E E' H H').
      intros x Hx. split; [|reflexivity]. apply bodies_app_old. intro Hin.
      destruct Hx as [->|Hx]; [exact (Hp Hin)|exact (Hre x Hin Hx)].
    Qed.

    (* One functor application.
       s  : the bindings  A_i |-> B_i
       m  : the extended map (bindings, applicant |-> new name, intermediate |-> clone name)
       cl : the predicates whose rules are copied
       X  : the rules added to the program. *)
    Section Clone.
      Variables (s m : ren) (cl : list pred) (X : program).
      Variables (E E' Es : pred -> rel).
      Hypothesis HE : is_model P E.
      Hypothesis HE' : is_model (P ++ X) E'.
      Hypothesis HEs : is_model_ov P s E Es.
      Hypothesis fresh : forall h, In h (heads X) -> rules_of P h = [].
      (* the rules of a copied predicate q reappear under the name m(q) with every predicate
         occurrence renamed by m *)
      Hypothesis copied : forall q, In q cl ->
        lookup s q = None /\ bodies P q <> [] /\
        bodies X (app m q) = map (ren_body (app m)) (bodies P q).
      (* every predicate used by a copied rule is: an argument (renamed to its value, which is
         old), or copied as well, or renamed to an old predicate that already has the required
         meaning (unaffected predicates, and clones shared through the cache) *)
      Hypothesis classified : forall q r u, In q cl -> In r P -> head r = q -> In u (uses r) ->
        (exists b, lookup s u = Some b /\ app m u = b /\ old X b) \/
        In u cl \/
        (old X (app m u) /\ E (app m u) = Es u).

      Theorem clone_sound : forall q, In q cl -> E' (app m q) = Es q.
      Proof using gsem_local gsem_rename Hrk HE HE' HEs fresh copied classified.
        induction q as [q IH] using ranked_ind. intro Hcl.
        destruct (copied q Hcl) as [Hl [Hne Hcp]].
        rewrite (HE' (app m q)), (HEs q). unfold Program.pden_ov. rewrite Hl.
        rewrite (pden_renamed P (P ++ X) (app m) E' (app m q) q Hne).
        - apply pden_local. intros r u Hr Hh Hu.
          destruct (classified q r u Hcl Hr Hh Hu) as [[bv [Hlk [Hap Hold]]]|[Hc|[Hold Heq]]].
          + rewrite Hap, (HEs u). unfold Program.pden_ov. rewrite Hlk. now apply (conservative X).
          + now apply (IH r u).
          + rewrite <- Heq. now apply (conservative X).
        - (* the clone's name is fresh, so all its bodies are the copied ones *)
          rewrite bodies_app, <- Hcp. unfold bodies at 1. rewrite fresh; [reflexivity|].
          apply bodies_heads. rewrite Hcp. intro H. exact (Hne (map_eq_nil _ _ H)).
      Qed.
    End Clone.
  End Ranked.
End Laws.
