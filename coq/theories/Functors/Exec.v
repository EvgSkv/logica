(* C04 — entry points used by props/c04.py to run the model of MakeAll inside Coq (vm_compute),
   and the free (symbolic) semantics: the meaning of a predicate is the tree of its unfolding.
   The free semantics satisfies locality and renaming (proved below), so it is an instance of the
   Section hypotheses of Functors/Functor.v; it is also the most discriminating one, which makes
   [verify] a per-instance check of the conclusion of clone_sound on the model's output. *)
From Coq Require Import List Bool NArith.
Import ListNotations.
From LV Require Import Functors.Program.

Inductive tree : Type :=
| Leaf : pred -> tree                       (* a predicate without rules *)
| Node : list (nat * list tree) -> tree     (* one entry per rule: body id, meaning of each occurrence *)
| Out : tree.                               (* out of fuel *)

Definition free_gsem (bs : list rbody) (e : pred -> tree) : tree :=
  Node (map (fun b => (snd b, map e (fst b))) bs).

Lemma free_local : forall bs e1 e2,
  (forall b u, In b bs -> In u (fst b) -> e1 u = e2 u) -> free_gsem bs e1 = free_gsem bs e2.
Proof.
  intros bs e1 e2 H. unfold free_gsem. f_equal. apply map_ext_in. intros b Hb. f_equal.
  apply map_ext_in. intros u Hu. exact (H b u Hb Hu).
Qed.

Lemma free_rename : forall bs f e,
  free_gsem (map (ren_body f) bs) e = free_gsem bs (fun u => e (f u)).
Proof.
  intros. unfold free_gsem. f_equal. rewrite map_map. apply map_ext. intros b. unfold ren_body. simpl.
  f_equal. now rewrite map_map.
Qed.

(* equality of unfoldings; the rules of one predicate are compared as a multiset (their order in
   the rule list is irrelevant for the union of bags and for aggregation, and functors.py appends
   clones sorted by their text) *)
Fixpoint tree_eqb (a b : tree) {struct a} : bool :=
  match a, b with
  | Leaf p, Leaf q => N.eqb p q
  | Out, Out => true
  | Node l, Node l' =>
    (fix go (l : list (nat * list tree)) (l' : list (nat * list tree)) {struct l} : bool :=
       match l with
       | [] => match l' with [] => true | _ => false end
       | (i, ts) :: r =>
         match
           (fix pick (pre l' : list (nat * list tree)) {struct l'} : option (list (nat * list tree)) :=
              match l' with
              | [] => None
              | (j, ts') :: q =>
                if Nat.eqb i j &&
                   (fix go2 (ts : list tree) (ts' : list tree) {struct ts} : bool :=
                      match ts, ts' with
                      | [], [] => true
                      | t :: u, t' :: u' => tree_eqb t t' && go2 u u'
                      | _, _ => false
                      end) ts ts'
                then Some (rev_append pre q) else pick ((j, ts') :: pre) q
              end) [] l'
         with
         | Some rest => go r rest
         | None => false
         end
       end) l l'
  | _, _ => false
  end.

Fixpoint has_out (t : tree) : bool :=
  match t with
  | Out => true
  | Leaf _ => false
  | Node l => existsb (fun e => existsb has_out (snd e)) l
  end.

Definition fden := den tree Leaf free_gsem Out.
Definition fden_ov := den_ov tree Leaf free_gsem Out.

(* for the application N := F(s) in the final program Pf: the meaning of N is the meaning of F with
   the arguments redefined (values read in Pf), and neither side ran out of fuel *)
Definition verify (Pf : program) (mk : make) : bool :=
  let '(N, F, s) := mk in
  let n := S (length Pf) in
  let a := fden n Pf N in
  let b := fden_ov s (fden n Pf) n Pf F in
  tree_eqb a b && negb (has_out a).

Open Scope N_scope.
Definition flat_rule (r : rule) : list N :=
  head r :: N.of_nat (body r) :: N.of_nat (length (uses r)) :: uses r.

(* clone names: X_f<n> is encoded as base + X * width + n (base = number of interned names,
   width > number of functor applications); the harness decodes.
   Output: 0, error code | 1, k, k verification bits, flattened rules *)
Definition run_flat (base width : N) (ann : list pred) (P : program)
                    (ms : list make) (consts : list rule) : list N :=
  match make_all (fun q n => base + q * width + N.of_nat n) ann P ms consts with
  | Err e => [0; N.of_nat e]
  | Ok P' => 1 :: N.of_nat (length ms) ::
             map (fun m => if verify P' m then 1 else 0) ms ++ concat (map flat_rule P')
  end.

(* The same symbolic check applied to the rule list the IMPLEMENTATION produced (independent of the
   cloning / sharing policy of the model): every N := F(s) means F with its arguments redefined,
   and every listed original predicate has the same unfolding before and after. *)
Definition unchanged (Ppre Ppost : program) (p : pred) : bool :=
  let n := S (length Ppost) in
  tree_eqb (fden n Ppost p) (fden n Ppre p) && negb (has_out (fden n Ppost p)).
Definition verify_real (Ppre Ppost : program) (ms : list make) (origs : list pred) : list N :=
  map (fun m => if verify Ppost m then 1 else 0) ms ++
  map (fun p => if unchanged Ppre Ppost p then 1 else 0) origs.
