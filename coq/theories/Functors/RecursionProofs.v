(* C03 — how many applications of the immediate-consequence operator each unfolding performs.
   All three plans are linear: every instruction reads the table the previous one wrote.  Such a plan
   of n instructions computes T^n(nil) whatever its tables are called, so each theorem reduces to
   reading the indices of gen/RecursionParams.v (the proofs unfold them, so they are re-checked
   against the source as it stands). *)
From Coq Require Import List ZArith Lia.
Import ListNotations.
From LVGen Require Import RecursionParams.
From LV Require Import Functors.Recursion.
Open Scope Z_scope.

Lemma zrange_nil : forall a, zrange a a = [].
Proof. intros. unfold zrange. now rewrite Z.sub_diag. Qed.

Lemma zrange_cons : forall a b, a < b -> zrange a b = a :: zrange (a + 1) b.
Proof.
  intros a b H. unfold zrange. replace (Z.to_nat (b - a)) with (S (Z.to_nat (b - (a + 1)))) by lia.
  cbn [seq map]. rewrite <- seq_shift, map_map. f_equal; [lia|]. apply map_ext. intro k. lia.
Qed.

Section Proofs.
  Variable A : Type.
  Variable T : A -> A.
  Variable bot : A.
  Notation Tn := (Tn A T).
  Notation exec := (exec A T bot).
  Notation exec1 := (exec1 A T bot).
  Notation result_of := (result_of A T bot).
  Notation store := (store A).

  Lemma Tn_shift : forall n x, Tn n (T x) = T (Tn n x).
  Proof. induction n; intros; cbn [Recursion.Tn]; [reflexivity|]. now rewrite IHn. Qed.

  (* [linear a l n b]: the n instructions of l each read the table written by the one before;
     the first reads a (None = nil) and the last writes b.  Since an instruction then sees exactly
     what its predecessor produced, neither the numbering of the tables nor what older tables
     hold plays any part. *)
  Inductive linear : option Z -> list instr -> nat -> option Z -> Prop :=
  | linear_nil : forall a, linear a [] 0 a
  | linear_cons : forall a w l n b, linear (Some w) l n b -> linear a ((w, a) :: l) (S n) b.

  Lemma linear_app : forall a l1 n1 b l2 n2 c,
    linear a l1 n1 b -> linear b l2 n2 c -> linear a (l1 ++ l2) (n1 + n2) c.
  Proof. induction 1; intros; cbn [List.app Nat.add]; [assumption|]. constructor. auto. Qed.

  Lemma linear_loop : forall a l n r, linear a l n a -> linear a (concat (repeat l r)) (r * n) a.
  Proof.
    intros a l n r H. induction r; cbn [repeat concat Nat.mul]; [constructor|].
    eapply linear_app; eassumption.
  Qed.

  Lemma linear_zrange : forall (f : Z -> instr) (w : Z -> Z) n lo hi a b,
    lo + Z.of_nat n = hi -> a = w (lo - 1) -> b = w (hi - 1) ->
    (forall i, lo <= i < hi -> f i = (w i, Some (w (i - 1)))) ->
    linear (Some a) (map f (zrange lo hi)) n (Some b).
  Proof.
    intros f w. induction n; intros lo hi a b Hn -> -> Hf.
    - replace hi with lo by lia. rewrite zrange_nil. constructor.
    - rewrite zrange_cons by lia. cbn [map]. rewrite Hf by lia. constructor.
      apply IHn; [lia|f_equal; lia|reflexivity|]. intros i Hi. apply Hf. lia.
  Qed.

  (* what an instruction with read field r applies T to *)
  Definition val (s : store) (r : option Z) : option A :=
    match r with None => Some bot | Some t => s t end.

  Lemma linear_exec : forall a l n b, linear a l n b -> forall s v, val s a = Some v ->
    exists s', exec s l = Some s' /\ val s' b = Some (Tn n v).
  Proof.
    induction 1 as [a|a w l n b _ IH]; intros s v Hv.
    - exists s. split; [reflexivity|exact Hv].
    - assert (exec1 s (w, a) = Some (upd A s w (T v))) as E.
      { unfold Recursion.exec1. cbn [fst snd]. destruct a; cbn [val] in Hv; [now rewrite Hv|congruence]. }
      cbn [Recursion.exec]. rewrite E. cbn [Recursion.Tn]. rewrite <- Tn_shift. apply IH.
      cbn [val]. unfold upd. now rewrite Z.eqb_refl.
  Qed.

  Theorem linear_result : forall l n k, linear None l n (Some k) -> result_of l k = Some (Tn n bot).
  Proof.
    intros l n k H. unfold Recursion.result_of.
    destruct (linear_exec _ _ _ _ H (empty A) bot eq_refl) as [s [E Hs]]. now rewrite E.
  Qed.

  (* vertical chain: P = P_r<depth> is T applied depth+1 times to nil *)
  Theorem vertical_is_iterate : forall depth, 0 <= depth ->
    vertical A T bot depth = Some (Tn (S (Z.to_nat depth)) bot).
  Proof.
    intros depth H. apply linear_result. unfold vertical_plan, vertical_result, vertical_range. constructor.
    apply (linear_zrange _ vertical_defines); unfold vertical_defines, vertical_uses; try lia.
    intros i _. do 2 f_equal. lia.
  Qed.

  (* flat chain: every member's P_fr<depth> is generation depth+1 of the simultaneous iteration *)
  Theorem flat_is_iterate : forall depth, 0 <= depth ->
    flat A T bot depth = Some (Tn (S (Z.to_nat depth)) bot).
  Proof.
    intros depth H. apply linear_result. unfold flat_plan, flat_result, flat_range.
    rewrite zrange_cons by lia. constructor.
    apply (linear_zrange _ (fun i => i)); try lia. intros i Hi. unfold flat_has_prev, flat_prev.
    destruct (Z.ltb_spec 0 i); [reflexivity|lia].
  Qed.

  Lemma iter_step_prev : forall g i j, 0 < i -> j = i - 1 ->
    iter_step g i = (table_of g i, Some (table_of g j)).
  Proof.
    intros g i j H ->. unfold iter_step, iter_has_prev, iter_prev.
    destruct (Z.ltb_spec 0 i); [reflexivity|lia].
  Qed.

  (* @Ground: member g-2, the lower one of the block, writes the table of member g-4, which is
     the one the upper member reads; this is what closes the loop *)
  Lemma shared_table : forall g, table_of g (g - 2) = table_of g (g - 4).
  Proof.
    intros. unfold table_of, iter_own_table, iter_shared_table, iter_inset. rewrite Z.eqb_refl.
    destruct (Z.eqb_spec (g - 4) (g - 2)); cbn [negb]; lia.
  Qed.

  (* the iterative plan performs  ignition - 2 + 2 * max(repetitions, 1)  applications:
     ignition - 3 to fill the tables up to that of member g-4, two per repetition of the block,
     which ends in that table again, and one for the result *)
  Theorem iterative_count : forall depth g, 4 <= g ->
    iterative A T bot depth g =
    Some (Tn (Z.to_nat (g - 2 + 2 * Z.max (repetitions depth g) 1)) bot).
  Proof.
    intros depth g H. unfold iterative. generalize (repetitions depth g). intro reps.
    set (r := Z.to_nat (Z.max reps 1)).
    replace (Z.to_nat (g - 2 + 2 * Z.max reps 1)) with (S (Z.to_nat (g - 4)) + (r * 2 + 1))%nat by lia.
    apply linear_result. unfold iter_plan, block, iter_upper, iter_lower, iter_range, iter_result, iter_inset.
    fold r. pose (c := Some (table_of g (g - 4))).
    apply linear_app with (b := c); [|apply linear_app with (b := c)].
    - rewrite zrange_cons by lia. constructor.
      apply (linear_zrange _ (table_of g)); [lia|f_equal; lia|f_equal; lia|].
      intros i Hi. apply iter_step_prev; lia.
    - apply linear_loop.
      rewrite (iter_step_prev g (g - 2 - 1) (g - 4)), (iter_step_prev g (g - 2) (g - 2 - 1)), shared_table by lia.
      repeat constructor.
    - apply (linear_zrange _ (table_of g)); [lia|rewrite <- shared_table; f_equal; lia|f_equal; lia|].
      intros i Hi. apply iter_step_prev; lia.
  Qed.

  (* the only place where the division in [repetitions] matters *)
  Lemma repetitions_exact : forall depth g, g <= depth + 1 -> ignition_bump g depth = false ->
    g - 2 + 2 * Z.max (repetitions depth g) 1 = depth + 1.
  Proof.
    intros depth g Hle Hpar. unfold ignition_bump in Hpar. apply Z.eqb_neq in Hpar. unfold repetitions.
    Z.to_euclidean_division_equations. lia.
  Qed.

  Theorem iterative_is_iterate : forall depth g, 4 <= g ->
    g <= depth + 1 -> ignition_bump g depth = false ->
    iterative A T bot depth g = Some (Tn (S (Z.to_nat depth)) bot).
  Proof.
    intros depth g H Hle Hpar. rewrite iterative_count, repetitions_exact by assumption.
    do 2 f_equal. lia.
  Qed.

  (* the parity is what UnfoldRecursions establishes for its own choice of ignition *)
  Lemma ignition_parity : forall cover depth, ignition_bump (ignition_of cover depth) depth = false.
  Proof.
    intros. unfold ignition_of. destruct (ignition_bump (ignition_base cover) depth) eqn:E; [|exact E].
    unfold ignition_bump, ignition_bump_by in *. apply Z.eqb_eq in E. apply Z.eqb_neq.
    Z.to_euclidean_division_equations. lia.
  Qed.

  Lemma ignition_bounds : forall cover depth, 1 <= cover ->
    4 <= ignition_of cover depth <= cover + 4.
  Proof.
    intros. unfold ignition_of, ignition_base, ignition_bump_by.
    destruct (ignition_bump (cover + 3) depth); lia.
  Qed.

  Theorem iterative_default_ignition : forall cover depth, 1 <= cover -> cover + 3 <= depth ->
    iterative A T bot depth (ignition_of cover depth) = Some (Tn (S (Z.to_nat depth)) bot).
  Proof.
    intros cover depth Hc Hd. pose proof (ignition_bounds cover depth Hc).
    apply iterative_is_iterate; [lia|lia|apply ignition_parity].
  Qed.

  (* depths above iterative_threshold switch to the iterative plan by themselves: exact for covers
     of up to iterative_threshold - 2 predicates, whatever value the source gives the threshold *)
  Corollary iterative_above_threshold : forall cover depth,
    iterative_threshold < depth -> 1 <= cover <= iterative_threshold - 2 ->
    iterative A T bot depth (ignition_of cover depth) = Some (Tn (S (Z.to_nat depth)) bot).
  Proof.
    intros cover depth Ht Hc. apply iterative_default_ignition; lia.
  Qed.
End Proofs.

(* the hypothesis  ignition <= depth + 1  is not guaranteed by the code: with an explicit small
   depth and iterative: true the plan overshoots.  Witness: one predicate, depth 2. *)
Theorem iterative_small_depth_refuted :
  exists cover depth, 1 <= cover /\ 0 <= depth /\
    iterative nat S O depth (ignition_of cover depth) <> Some (Tn nat S (S (Z.to_nat depth)) O).
Proof.
  exists 1, 2. split; [lia|]. split; [lia|]. vm_compute. discriminate.
Qed.

Example iterative_small_depth_value : iterative nat S O 2 (ignition_of 1 2) = Some 5%nat.
Proof. vm_compute. reflexivity. Qed.

Lemma defaults : default_depth = 8.
Proof. reflexivity. Qed.
