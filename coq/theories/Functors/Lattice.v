(* C03 — bounded iteration versus the least fixpoint, for a monotone operator on a product of
   partial orders with a least element (one component per member of the recursive component:
   sets of rows ordered by inclusion, or shortest distances ordered by "at least as good").
   Everything here is for all operators, orders and schedules; no finiteness is assumed. *)
From Coq Require Import List PeanoNat.
Import ListNotations.

Section Lattice.
  Variable S : Type.
  Variable le : S -> S -> Prop.
  Hypothesis le_refl : forall a, le a a.
  Hypothesis le_trans : forall a b c, le a b -> le b c -> le a c.
  Variable bot : S.
  Hypothesis bot_le : forall a, le bot a.

  Variable I : Type.                           (* the members of the recursive component *)
  Definition st := I -> S.
  Definition sle (x y : st) : Prop := forall i, le (x i) (y i).
  Definition bots : st := fun _ => bot.

  Variable T : st -> st.                       (* one simultaneous application of all the rules *)
  Hypothesis T_mono : forall x y, sle x y -> sle (T x) (T y).

  Fixpoint iterT (n : nat) : st := match n with O => bots | Datatypes.S k => T (iterT k) end.

  Lemma sle_refl : forall x, sle x x.
  Proof. intros x i. apply le_refl. Qed.
  Lemma sle_trans : forall x y z, sle x y -> sle y z -> sle x z.
  Proof. intros x y z H1 H2 i. eapply le_trans; [apply H1|apply H2]. Qed.

  Definition closed (x : st) : Prop := sle (T x) x.
  Definition is_lfp (mu : st) : Prop := closed mu /\ forall x, closed x -> sle mu x.

  Lemma bots_least : forall x, sle bots x.
  Proof. intros x i. apply bot_le. Qed.

  Theorem iterate_below_closed : forall x, closed x -> forall n, sle (iterT n) x.
  Proof.
    intros x Hx. induction n.
    - apply bots_least.
    - simpl. eapply sle_trans; [apply T_mono, IHn|exact Hx].
  Qed.

  Theorem iterate_increasing : forall n, sle (iterT n) (iterT (Datatypes.S n)).
  Proof.
    induction n.
    - apply bots_least.
    - simpl. apply T_mono. exact IHn.
  Qed.

  Lemma iterate_mono : forall n m, n <= m -> sle (iterT n) (iterT m).
  Proof.
    intros n m H. induction H as [|m H IH]; [apply sle_refl|]. eapply sle_trans; [exact IH|apply iterate_increasing].
  Qed.

  Theorem stationary_is_lfp : forall k, sle (iterT (Datatypes.S k)) (iterT k) -> is_lfp (iterT k).
  Proof.
    intros k H. split; [exact H|]. intros x Hx. apply iterate_below_closed. exact Hx.
  Qed.

  Corollary stationary_stays : forall k, sle (iterT (Datatypes.S k)) (iterT k) ->
    forall n, k <= n -> sle (iterT n) (iterT k).
  Proof.
    intros k H n Hn. apply iterate_below_closed. exact H.
  Qed.

  (* Chaotic (Gauss-Seidel) iteration.
     An update recomputes the components selected by U from the current state and keeps the
     others; a round is any list of updates that selects every component at least once.  What is
     proved is about such schedules only: n rounds from the empty state lie between T^n(bot) and
     every closed state, hence the least fixpoint.  That a compiled plan (the vertical unfolding
     through a cut predicate, the @Iteration block as Concertina runs it) executes as such a
     schedule is not proved here: for the iterative plan it is the assumption about the order of
     execution taken from C14. *)
  Definition update (U : I -> bool) (x : st) : st := fun i => if U i then T x i else x i.
  Fixpoint run (us : list (I -> bool)) (x : st) : st :=
    match us with [] => x | U :: t => run t (update U x) end.
  Definition covers (us : list (I -> bool)) : Prop := forall i, exists U, In U us /\ U i = true.
  Fixpoint rounds (rs : list (list (I -> bool))) (x : st) : st :=
    match rs with [] => x | r :: t => rounds t (run r x) end.

  Definition inflating (x : st) : Prop := sle x (T x).

  Lemma update_above : forall U x, inflating x -> sle x (update U x).
  Proof. intros U x Hx i. unfold update. destruct (U i); [apply Hx|apply le_refl]. Qed.

  Lemma update_inflating : forall U x, inflating x -> inflating (update U x).
  Proof.
    intros U x Hx i. pose proof (T_mono _ _ (update_above U x Hx) i) as H.
    unfold update at 1. destruct (U i); [exact H|]. eapply le_trans; [apply Hx|exact H].
  Qed.

  Lemma update_below : forall U x mu, closed mu -> sle x mu -> sle (update U x) mu.
  Proof.
    intros U x mu Hmu Hx i. unfold update. destruct (U i); [|apply Hx].
    eapply le_trans; [apply (T_mono _ _ Hx)|apply Hmu].
  Qed.

  Lemma run_above : forall us x, inflating x -> sle x (run us x) /\ inflating (run us x).
  Proof.
    induction us as [|U t IH]; intros x Hx; simpl.
    - split; [apply sle_refl|exact Hx].
    - destruct (IH (update U x) (update_inflating U x Hx)) as [H1 H2]. split; [|exact H2].
      eapply sle_trans; [apply update_above; exact Hx|exact H1].
  Qed.

  Lemma run_below : forall us x mu, closed mu -> sle x mu -> sle (run us x) mu.
  Proof.
    induction us as [|U t IH]; intros x mu Hmu Hx; simpl; [exact Hx|].
    apply IH; [exact Hmu|]. apply update_below; assumption.
  Qed.

  (* a covering round from an inflating state gains one application of T: the update that selects
     i sets it to T of a state above x, and later updates only go up *)
  Lemma round_gains : forall us x i, inflating x ->
    (exists U, In U us /\ U i = true) -> le (T x i) (run us x i).
  Proof.
    induction us as [|U t IH]; intros x i Hx [U0 [Hin Hi]]; [destruct Hin|].
    pose proof (update_inflating U x Hx) as Hx'. cbn [run]. destruct Hin as [->|Hin].
    - eapply le_trans; [|apply (run_above t), Hx']. unfold update. rewrite Hi. apply le_refl.
    - eapply le_trans; [apply (T_mono _ _ (update_above U x Hx))|]. apply IH; eauto.
  Qed.

  Lemma rounds_above : forall rs x n, Forall covers rs -> inflating x -> sle (iterT n) x ->
    sle (iterT (length rs + n)) (rounds rs x).
  Proof.
    induction rs as [|r t IH]; intros x n Hc Hx Hn; [exact Hn|].
    inversion_clear Hc as [|? ? Hr Ht]. cbn [length rounds]. rewrite Nat.add_succ_comm.
    apply IH; [exact Ht|apply run_above, Hx|]. intro i.
    eapply le_trans; [apply (T_mono _ _ Hn)|apply round_gains; [exact Hx|apply Hr]].
  Qed.

  Lemma rounds_below : forall rs x mu, closed mu -> sle x mu -> sle (rounds rs x) mu.
  Proof.
    induction rs as [|r t IH]; intros x mu Hmu Hx; cbn [rounds]; [exact Hx|].
    apply IH; [exact Hmu|]. apply run_below; assumption.
  Qed.

  Theorem chaotic_between : forall rs, Forall covers rs ->
    sle (iterT (length rs)) (rounds rs bots) /\
    forall mu, closed mu -> sle (rounds rs bots) mu.
  Proof.
    intros rs Hrs. split.
    - rewrite <- (Nat.add_0_r (length rs)). apply rounds_above; [exact Hrs|apply bots_least..].
    - intros mu Hmu. apply rounds_below; [exact Hmu|apply bots_least].
  Qed.

  Corollary chaotic_reaches_lfp : forall rs k, Forall covers rs -> k <= length rs ->
    sle (iterT (Datatypes.S k)) (iterT k) ->
    sle (iterT k) (rounds rs bots) /\ sle (rounds rs bots) (iterT k).
  Proof.
    intros rs k Hrs Hk Hst. destruct (chaotic_between rs Hrs) as [Hlo Hhi]. split.
    - eapply sle_trans; [apply iterate_mono; exact Hk|exact Hlo].
    - apply Hhi. exact Hst.
  Qed.
End Lattice.
