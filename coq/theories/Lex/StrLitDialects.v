(* C10 — round trip theorems for the emitters that the CURRENT source of QL.StrLiteral defines
   (coq/gen/StrLitGen.v).  If the source changes an emitter, these proofs are re-run by make
   against the new table. *)
From Coq Require Import List NArith.
Import ListNotations.
From LV Require Import Lex.StrLit Lex.StrLitProofs Lex.StrLitEmit.
From LVGen Require Import StrLitGen.
Open Scope N_scope.

(* '...' with quote doubling: SQLite, PostgreSQL, Presto, Trino *)
Definition quote_doubling : emit_kind := Wrap [39] [39] [([39], [39; 39])].

(* The instance for a dialect is the theorem about the emitter written out here: `exact` fails when
   the generated kind_<D> is no longer convertible to that emitter. *)
Lemma roundtrip_quote_doubling_std : forall s rest, no_quote_start 39 rest ->
  lex_std (emit_of quote_doubling s ++ rest) = Some (s, rest).
Proof.
  intros s rest H.
  apply (wrap_roundtrip lex_std std_body _ _ _ [39]).
  - reflexivity.
  - reflexivity.
  - exact std_body_plain.
  - apply reads_back_all. reflexivity.
  - apply close_39; [reflexivity|exact H].
Qed.

Theorem roundtrip_SqLite : forall s rest, no_quote_start 39 rest ->
  lex_std (emit_of kind_SqLite s ++ rest) = Some (s, rest).
Proof. exact roundtrip_quote_doubling_std. Qed.

Theorem roundtrip_PostgreSQL : forall s rest, no_quote_start 39 rest ->
  lex_std (emit_of kind_PostgreSQL s ++ rest) = Some (s, rest).
Proof. exact roundtrip_quote_doubling_std. Qed.

Theorem roundtrip_Presto : forall s rest, no_quote_start 39 rest ->
  lex_std (emit_of kind_Presto s ++ rest) = Some (s, rest).
Proof. exact roundtrip_quote_doubling_std. Qed.

Theorem roundtrip_Trino : forall s rest, no_quote_start 39 rest ->
  lex_std (emit_of kind_Trino s ++ rest) = Some (s, rest).
Proof. exact roundtrip_quote_doubling_std. Qed.

Theorem roundtrip_DuckDB : forall s rest, no_quote_start 39 rest ->
  lex_estr (emit_of kind_DuckDB s ++ rest) = Some (s, rest).
Proof.
  intros s rest H.
  apply (wrap_roundtrip lex_estr estr_body _ _ _ [39; 92]).
  - reflexivity.
  - reflexivity.
  - exact estr_body_plain.
  - apply reads_back_all. reflexivity.
  - apply close_39; [reflexivity|exact H].
Qed.

Theorem roundtrip_BigQuery : forall s rest,
  lex_bq (emit_of kind_BigQuery s ++ rest) = Some (s, rest).
Proof. exact bq_roundtrip. Qed.

Theorem roundtrip_Databricks_partial : forall s rest, ~ In 12 s ->
  lex_dbx (emit_of kind_Databricks s ++ rest) = Some (s, rest).
Proof. exact dbx_roundtrip_no_formfeed. Qed.

(* the form feed is written as \f, which Spark SQL reads as the letter f *)
Theorem Databricks_formfeed_refuted :
  exists s rest, no_quote_start 34 rest /\
    lex_dbx (emit_of kind_Databricks s ++ rest) <> Some (s, rest) /\
    lex_dbx (emit_of kind_Databricks s ++ rest) = Some ([102], rest).
Proof. exists [12], []. split; [exact I|]. split; [vm_compute; discriminate|vm_compute; reflexivity]. Qed.

(* what QL.StrLiteral emits for ClickHouse, the backslash escaped first and then the quote doubled:
   '%s' % s.replace('\\', '\\\\').replace("'", "''") *)
Definition proposed_ClickHouse : emit_kind := Wrap [39] [39] [([92], [92; 92]); ([39], [39; 39])].

Theorem proposed_ClickHouse_roundtrip : forall s rest, no_quote_start 39 rest ->
  lex_ch (emit_of proposed_ClickHouse s ++ rest) = Some (s, rest).
Proof.
  intros s rest H.
  apply (wrap_roundtrip lex_ch ch_body _ _ _ [39; 92]).
  - reflexivity.
  - reflexivity.
  - exact ch_body_plain.
  - apply reads_back_all. reflexivity.
  - apply close_39; [reflexivity|exact H].
Qed.

Theorem roundtrip_ClickHouse : forall s rest, no_quote_start 39 rest ->
  lex_ch (emit_of kind_ClickHouse s ++ rest) = Some (s, rest).
Proof. exact proposed_ClickHouse_roundtrip. Qed.

(* quote doubling alone is not enough for this lexer: a backslash swallows the closing quote ... *)
Theorem ClickHouse_quote_doubling_alone_refuted :
  exists s rest, no_quote_start 39 rest /\
    lex_ch (emit_of quote_doubling s ++ rest) <> Some (s, rest).
Proof. exists [92], []. split; [exact I|]. vm_compute. discriminate. Qed.

(* ... or the literal ends somewhere inside the SQL text that follows it *)
Theorem ClickHouse_quote_doubling_alone_changes_structure :
  let s := [97; 92] in
  let rest := [32; 79; 82; 32; 39; 120; 39; 32; 61; 32; 39; 120; 39] in
  no_quote_start 39 rest /\
  lex_ch (emit_of quote_doubling s ++ rest) =
    Some ([97; 39; 32; 79; 82; 32], [120; 39; 32; 61; 32; 39; 120; 39]).
Proof. split; [vm_compute; discriminate|vm_compute; reflexivity]. Qed.

Theorem all_dialects_have_lexer :
  forallb (fun p => match lexer_for (fst p) with Some _ => true | None => false end) dialect_kinds = true.
Proof. vm_compute. reflexivity. Qed.

Theorem roundtrip_all : forall name k lx,
  In (name, k) dialect_kinds -> lexer_for name = Some lx ->
  forall s rest, safe_for name s -> no_quote_start (quote_of lx) rest ->
  run_lexer lx (emit_of k s ++ rest) = Some (s, rest).
Proof.
  intros name k lx Hin Hlx s rest [Hch Hdbx] Hr.
  simpl in Hin.
  (* one goal per entry of dialect_kinds, in the order of the table, with name, k and lx those of the
     entry *)
  repeat (destruct Hin as [Hin|Hin];
          [injection Hin as <- <-; vm_compute in Hlx; injection Hlx as <-; simpl in Hr |]);
  try contradiction.
  - apply roundtrip_BigQuery.
  - apply roundtrip_ClickHouse, Hr.
  - apply roundtrip_Databricks_partial, Hdbx, eq_refl.
  - apply roundtrip_DuckDB, Hr.
  - apply roundtrip_PostgreSQL, Hr.
  - apply roundtrip_Presto, Hr.
  - apply roundtrip_SqLite, Hr.
  - apply roundtrip_Trino, Hr.
Qed.

(* FlagValue goes through the same emitter: its literal reads back as the flag's value *)
Theorem flag_value_roundtrip : forall name k lx flags f lit,
  In (name, k) dialect_kinds -> lexer_for name = Some lx ->
  flag_literal k flags f = Some lit ->
  exists v, lookup f flags = Some v /\
    forall rest, safe_for name v -> no_quote_start (quote_of lx) rest ->
    run_lexer lx (lit ++ rest) = Some (v, rest).
Proof.
  intros name k lx flags f lit Hin Hlx Hf. unfold flag_literal in Hf.
  destruct (lookup f flags) as [v|]; [|discriminate]. injection Hf as <-.
  exists v. split; [reflexivity|]. intros rest. apply (roundtrip_all name k lx Hin Hlx).
Qed.

(* the proposed repair of the Databricks emitter, checked against the same Spec lexer *)
(* Databricks:  '"%s"' % s.replace('\\','\\\\').replace('"','\\"').replace('\n','\\n').replace('\r','\\r').replace('\t','\\t') *)
Definition proposed_Databricks : emit_kind :=
  Wrap [34] [34] [([92], [92; 92]); ([34], [92; 34]); ([10], [92; 110]); ([13], [92; 114]); ([9], [92; 116])].

Theorem proposed_Databricks_roundtrip : forall s rest,
  lex_dbx (emit_of proposed_Databricks s ++ rest) = Some (s, rest).
Proof.
  intros s rest.
  apply (wrap_roundtrip lex_dbx dbx_body _ _ _ [34; 92]).
  - reflexivity.
  - reflexivity.
  - exact dbx_body_plain.
  - apply reads_back_all. reflexivity.
  - reflexivity.
Qed.
