(* C10 — proofs about Lex/StrLit.v (building blocks; nothing here depends on coq/gen). *)
From Coq Require Import List NArith Bool PeanoNat.
Import ListNotations.
From LV Require Import Lex.StrLit Util.ListFacts.
Open Scope N_scope.

Local Arguments N.eqb : simpl never.
Local Arguments N.leb : simpl never.
Local Arguments N.ltb : simpl never.

Lemma str_eqb_spec : forall a b, reflect (a = b) (str_eqb a b).
Proof.
  intros a b. apply iff_reflect. symmetry. revert a b.
  apply (list_eqb_eq N.eqb N.eqb_eq). intros [|] [|]; reflexivity.
Qed.

(* l and k are closed at every use: the second premise holds by computation, so one `rewrite !`
   disposes of all the tests of c in a goal. *)
Lemma eqb_notin : forall (l : str) c k,
  ~ In c l -> existsb (N.eqb k) l = true -> (c =? k) = false.
Proof.
  intros l c k H Hk. apply N.eqb_neq. intros ->. apply H.
  apply existsb_exists in Hk. destruct Hk as (x & Hx & E). apply N.eqb_eq in E. now subst.
Qed.

Definition single_steps (steps : list (str * str)) : bool :=
  forallb (fun p => Nat.eqb (length (fst p)) 1) steps.

(* Replacing a one-character pattern looks at one character at a time, so a chain of such replaces
   distributes over ++ and is determined by what it makes of the one-character strings. *)
Lemma replace_single_app : forall p v a b,
  replace_all [p] v (a ++ b) = replace_all [p] v a ++ replace_all [p] v b.
Proof.
  intros p v a b. unfold replace_all. induction a as [|c a IH]; [reflexivity|].
  cbn [app repl starts_with length Nat.sub]. rewrite IH.
  destruct (p =? c); [apply app_assoc|reflexivity].
Qed.

Lemma apply_steps_app : forall steps, single_steps steps = true ->
  forall a b, apply_steps steps (a ++ b) = apply_steps steps a ++ apply_steps steps b.
Proof.
  (* the first pattern is [], [p] or longer: Hs computes to false = true but for [p], and there to
     the premise for ps *)
  induction steps as [|[[|p [|]] v] ps IH]; intros Hs a b; try discriminate Hs; [reflexivity|].
  unfold apply_steps. cbn [fold_left fst snd]. rewrite replace_single_app. apply IH, Hs.
Qed.

Lemma apply_steps_chars : forall steps, single_steps steps = true ->
  forall s, apply_steps steps s = flat_map (fun c => apply_steps steps [c]) s.
Proof.
  intros steps Hs. induction s as [|c s IH]; cbn [flat_map].
  - apply fold_left_stays. reflexivity.
  - rewrite <- IH. apply (apply_steps_app steps Hs [c] s).
Qed.

Lemma apply_steps_plain : forall steps, single_steps steps = true ->
  forall c, ~ In c (flat_map fst steps) -> apply_steps steps [c] = [c].
Proof.
  induction steps as [|[[|p [|]] v] ps IH]; intros Hs c H; try discriminate Hs; [reflexivity|].
  unfold apply_steps, replace_all. cbn [fold_left fst snd repl starts_with].
  destruct (N.eqb_spec p c) as [->|_].
  - elim H. left. reflexivity.
  - apply IH; [exact Hs|]. intro I. apply H. right. exact I.
Qed.

(* The lexer body B reads the escape of c as c, whatever follows. *)
Definition reads_back (B : str -> res) (E : N -> str) (c : N) : Prop :=
  forall tail, B (E c ++ tail) = push c (B tail).

(* For a closed list of characters with closed escapes the premise is one conversion: the body applied
   to an escape followed by a variable tail computes. *)
Lemma reads_back_all : forall (B : str -> res) (E : N -> str) (l : str),
  (forall tail, map (fun c => B (E c ++ tail)) l = map (fun c => push c (B tail)) l) ->
  Forall (reads_back B E) l.
Proof.
  intros B E l H. apply Forall_forall. intros c Hc tail. revert c Hc.
  apply map_ext_in_iff, H.
Qed.

Lemma body_roundtrip : forall (B : str -> res) (E : N -> str) (q : N) s rest,
  Forall (reads_back B E) s -> B (q :: rest) = Some ([], rest) ->
  B (flat_map E s ++ q :: rest) = Some (s, rest).
Proof.
  intros B E q s rest Hs Hq. induction Hs as [|c s Hc Hs IH]; simpl.
  - exact Hq.
  - rewrite <- app_assoc. rewrite Hc. rewrite IH. reflexivity.
Qed.

(* se: the characters the emitter escapes; sl: those special to the lexer; P excludes the characters
   for which a dialect does not round trip. *)
Lemma reads_back_cases : forall (B : str -> res) (E : N -> str) (se sl : str) (P : N -> bool),
  (forall c, ~ In c se -> E c = [c]) ->
  (forall c t, ~ In c sl -> B (c :: t) = push c (B t)) ->
  Forall (reads_back B E) (filter P (se ++ sl)) ->
  forall c, P c = true -> reads_back B E c.
Proof.
  intros B E se sl P HE HB Hsp c Pc.
  destruct (in_dec N.eq_dec c (se ++ sl)) as [I|I].
  - apply (proj1 (Forall_forall _ _) Hsp c), filter_In. split; assumption.
  - intros tail. rewrite HE by (intro; apply I, in_or_app; now left).
    apply HB. intro; apply I, in_or_app; now right.
Qed.

Lemma close_39 : forall (B : str -> res),
  (forall t, B (39 :: t) =
     match t with
     | c2 :: t2 => if c2 =? 39 then push 39 (B t2) else Some ([], t)
     | [] => Some ([], [])
     end) ->
  forall rest, no_quote_start 39 rest -> B (39 :: rest) = Some ([], rest).
Proof.
  intros B H rest Hr. rewrite H. destruct rest as [|c r]; auto.
  simpl in Hr. apply N.eqb_neq in Hr. rewrite Hr. auto.
Qed.

(* cbn with the body alone: simpl would also unfold every escape branch *)
Lemma std_body_plain : forall c t, ~ In c [39] -> std_body (c :: t) = push c (std_body t).
Proof. intros c t H. cbn [std_body]. now rewrite !(eqb_notin _ _ _ H) by reflexivity. Qed.

Lemma estr_body_plain : forall c t, ~ In c [39; 92] -> estr_body (c :: t) = push c (estr_body t).
Proof. intros c t H. cbn [estr_body]. now rewrite !(eqb_notin _ _ _ H) by reflexivity. Qed.

Lemma ch_body_plain : forall c t, ~ In c [39; 92] -> ch_body (c :: t) = push c (ch_body t).
Proof. intros c t H. cbn [ch_body]. now rewrite !(eqb_notin _ _ _ H) by reflexivity. Qed.

Lemma bq_body_plain : forall c t, ~ In c [34; 10; 13; 92] -> bq_body (c :: t) = push c (bq_body t).
Proof. intros c t H. cbn [bq_body]. now rewrite !(eqb_notin _ _ _ H) by reflexivity. Qed.

Lemma dbx_body_plain : forall c t, ~ In c [34; 92] -> dbx_body (c :: t) = push c (dbx_body t).
Proof. intros c t H. cbn [dbx_body]. now rewrite !(eqb_notin _ _ _ H) by reflexivity. Qed.

(* Emitters of the form  pre + s.replace(..).replace(..)... + q  read by a lexer L whose body after
   the opening pre is B.  For given B, steps and sl the fourth premise is closed. *)
Theorem wrap_roundtrip : forall (L B : str -> res) pre q steps (sl : str),
  single_steps steps = true ->
  (forall l, L (pre ++ l) = B l) ->
  (forall c t, ~ In c sl -> B (c :: t) = push c (B t)) ->
  Forall (reads_back B (fun c => apply_steps steps [c])) (flat_map fst steps ++ sl) ->
  forall s rest, B (q :: rest) = Some ([], rest) ->
  L (emit_of (Wrap pre [q] steps) s ++ rest) = Some (s, rest).
Proof.
  intros L B pre q steps sl Hs Hpre HB Hsp s rest Hq.
  simpl. rewrite <- !app_assoc, Hpre, apply_steps_chars by exact Hs.
  apply body_roundtrip; [|exact Hq].
  apply Forall_forall. intros c _.
  apply (reads_back_cases B _ _ sl (fun _ => true) (apply_steps_plain steps Hs) HB); [|reflexivity].
  apply (incl_Forall (incl_filter _ _) Hsp).
Qed.

(* std_esc is quote doubling as a function of one character; lex_ch (the ClickHouse lexer on an
   emitter without the backslash step) reads it back only when no backslash occurs. *)
Definition std_esc (c : N) : str := if c =? 39 then [39; 39] else [c].

Lemma std_esc_plain : forall c, ~ In c [39] -> std_esc c = [c].
Proof. intros c H. unfold std_esc. now rewrite (eqb_notin _ _ _ H). Qed.

Lemma ch_char : forall c, c <> 92 -> reads_back ch_body std_esc c.
Proof.
  intros c Hc.
  apply (reads_back_cases ch_body std_esc _ _ (fun c => negb (c =? 92)) std_esc_plain ch_body_plain).
  - apply reads_back_all. reflexivity.
  - apply negb_true_iff, N.eqb_neq, Hc.
Qed.

Lemma ch_roundtrip_no_backslash : forall s rest, ~ In 92 s -> no_quote_start 39 rest ->
  lex_ch (39 :: flat_map std_esc s ++ 39 :: rest) = Some (s, rest).
Proof.
  intros s rest Hs Hr. apply body_roundtrip; [|apply close_39; [reflexivity|exact Hr]].
  apply Forall_forall. intros c Hc. apply ch_char. now intros ->.
Qed.

(* json.dumps read by BigQuery / Databricks: special to the emitter are the quote, the backslash
   and the 32 control characters (the list is evaluated here, once: the proofs below walk it by
   conversion) *)
Definition ctrl : str := Eval cbv in map N.of_nat (seq 0 32).

Lemma lt32_cases : forall c, c < 32 -> In c ctrl.
Proof.
  intros c H. rewrite <- (N2Nat.id c). change ctrl with (map N.of_nat (seq 0 32)).
  apply in_map, in_seq. split; [apply Nat.le_0_l|].
  apply Nat.compare_lt_iff. change (0 + 32)%nat with (N.to_nat 32). now rewrite <- N2Nat.inj_compare.
Qed.

Lemma json_esc_plain : forall c, ~ In c (34 :: 92 :: ctrl) -> json_esc c = [c].
Proof.
  intros c H. unfold json_esc. rewrite !(eqb_notin _ _ _ H) by reflexivity.
  destruct (N.ltb_spec c 32) as [L|_]; [|reflexivity].
  elim H. right. right. apply lt32_cases, L.
Qed.

Lemma bq_char : forall c, reads_back bq_body json_esc c.
Proof.
  intros c.
  apply (reads_back_cases bq_body json_esc _ _ (fun _ => true) json_esc_plain bq_body_plain); [|reflexivity].
  apply reads_back_all. reflexivity.
Qed.

Lemma bq_roundtrip : forall s rest,
  lex_bq (json_dumps s ++ rest) = Some (s, rest).
Proof.
  intros s rest. unfold json_dumps. simpl. rewrite <- app_assoc.
  apply body_roundtrip; [|reflexivity].
  apply Forall_forall. intros c _. apply bq_char.
Qed.

(* json.dumps writes the form feed as \f, which Spark SQL reads as the letter f *)
Lemma dbx_char : forall c, c <> 12 -> reads_back dbx_body json_esc c.
Proof.
  intros c Hc.
  apply (reads_back_cases dbx_body json_esc _ _ (fun c => negb (c =? 12)) json_esc_plain dbx_body_plain).
  - apply reads_back_all. reflexivity.
  - apply negb_true_iff, N.eqb_neq, Hc.
Qed.

Lemma dbx_roundtrip_no_formfeed : forall s rest, ~ In 12 s ->
  lex_dbx (json_dumps s ++ rest) = Some (s, rest).
Proof.
  intros s rest Hs. unfold json_dumps. simpl. rewrite <- app_assoc.
  apply body_roundtrip; [|reflexivity].
  apply Forall_forall. intros c Hc. apply dbx_char. now intros ->.
Qed.

Lemma lookup_dict_set : forall f k v m,
  lookup f (dict_set k v m) = if str_eqb f k then Some v else lookup f m.
Proof.
  intros f k v m. induction m as [|[k' v'] m IH]; simpl.
  - reflexivity.
  - destruct (str_eqb_spec k k') as [<-|Hkk]; simpl.
    + destruct (str_eqb f k); reflexivity.
    + rewrite IH.
      destruct (str_eqb_spec f k') as [->|_], (str_eqb_spec k' k) as [->|_]; congruence.
Qed.

Definition first_some (a b : option str) : option str :=
  match a with Some _ => a | None => b end.

Lemma lookup_dict_update : forall f upd m,
  lookup f (dict_update m upd) = first_some (lookup f (rev upd)) (lookup f m).
Proof.
  intros f upd m. unfold dict_update.
  (* updating from the first binding on is setting from the last binding inwards *)
  rewrite <- (fold_left_rev_right (fun kv acc => dict_set (fst kv) (snd kv) acc)).
  induction (rev upd) as [|[k v] u IH]; simpl.
  - reflexivity.
  - rewrite lookup_dict_set, IH. now destruct (str_eqb f k).
Qed.

Lemma flags_precedence : forall defaults resets user m f,
  build_flags defaults resets user = Some m ->
  lookup f m =
  first_some (lookup f (rev user)) (first_some (lookup f (rev resets)) (lookup f (rev defaults))).
Proof.
  intros d r u m f H. unfold build_flags in H.
  destruct (forallb _ u); [|discriminate]. injection H as <-.
  rewrite !lookup_dict_update. simpl. now destruct (lookup f (rev d)).
Qed.

Lemma flags_undefined_rejected : forall defaults resets user,
  build_flags defaults resets user = None <->
  exists k v, In (k, v) user /\ lookup k defaults = None /\ k <> system_flag.
Proof.
  intros d r u. unfold build_flags.
  destruct (forallb _ u) eqn:E; split; try discriminate; try reflexivity.
  - intros (k & v & Hin & Hl & Hs).
    rewrite forallb_forall in E. specialize (E _ Hin). unfold mem_key in E. simpl in E.
    rewrite Hl in E. now destruct (str_eqb_spec k system_flag).
  - intros _. apply forallb_false_witness in E. destruct E as ([k v] & Hin & Hx).
    simpl in Hx. apply orb_false_iff in Hx. destruct Hx as [Hm Hs].
    exists k, v. split; [exact Hin|]. split.
    + unfold mem_key in Hm. now destruct (lookup k d).
    + now destruct (str_eqb_spec k system_flag).
Qed.

Lemma round_flags_nil : forall flags, round_flags flags [] = [].
Proof. intros flags. apply fold_left_stays. reflexivity. Qed.

(* the texts the loop compares: prev, sql, one round on sql, ... *)
Definition before (f : str -> str) (prev sql : str) (k : nat) : str :=
  match k with O => prev | S j => Nat.iter j f sql end.

Lemma before_shift : forall f prev sql k, before f sql (f sql) k = before f prev sql (S k).
Proof. intros f prev sql [|k]; [reflexivity|symmetry; apply nat_rect_succ_r]. Qed.

(* A result is the text at some k <= n that equals the one before it; the loop fails only if no k <= n
   has such a text. *)
Lemma flags_loop_spec : forall flags n prev sql,
  (forall r, flags_loop n flags prev sql = Some r ->
     exists k, (k <= n)%nat /\ r = before (round_flags flags) prev sql (S k) /\
               r = before (round_flags flags) prev sql k) /\
  (flags_loop n flags prev sql = None ->
     forall k, (k <= n)%nat ->
       before (round_flags flags) prev sql (S k) <> before (round_flags flags) prev sql k).
Proof.
  intros flags n. induction n as [|n IH]; intros prev sql; simpl;
    destruct (str_eqb_spec sql prev) as [E|E].
  (* the two goals with sql = prev (n = 0 and S n): the loop stops at once, k = 0 *)
  1, 3: split; [intros r [= <-]; exists 0%nat|discriminate];
        split; [apply Nat.le_0_l|split; [reflexivity|exact E]].
  - split; [discriminate|]. intros _ k Hk. apply Nat.le_0_r in Hk as ->. exact E.
  - destruct (IH sql (round_flags flags sql)) as [IHs IHn]. split.
    + intros r H. destruct (IHs r H) as (k & Hk & Hr & Hb). rewrite (before_shift _ prev) in Hr, Hb.
      exists (S k). split; [apply le_n_S, Hk|split; assumption].
    + intros H [|k] Hk; [exact E|].
      specialize (IHn H k (le_S_n _ _ Hk)). rewrite !(before_shift _ prev) in IHn. exact IHn.
Qed.

Lemma use_flags_fixed_point : forall flags sql r,
  use_flags flags sql = Some r -> round_flags flags r = r.
Proof.
  intros flags sql r. unfold use_flags. intros H.
  apply (proj1 (flags_loop_spec _ _ _ _)) in H as ([|k] & _ & Hr & Hb).
  - rewrite Hb. apply round_flags_nil.
  - rewrite Hr at 2. rewrite Hb. reflexivity.
Qed.

Lemma use_flags_bounded : forall flags sql r,
  use_flags flags sql = Some r ->
  exists k, (k <= 100)%nat /\ r = Nat.iter k (round_flags flags) sql.
Proof.
  intros flags sql r. unfold use_flags. intros H.
  apply (proj1 (flags_loop_spec _ _ _ _)) in H as (k & Hk & Hr & _).
  exists k. split; assumption.
Qed.

Lemma use_flags_error_only_if_not_converged : forall flags sql,
  use_flags flags sql = None ->
  forall k, (k < 100)%nat ->
    Nat.iter (S k) (round_flags flags) sql <> Nat.iter k (round_flags flags) sql.
Proof.
  intros flags sql. unfold use_flags. intros H k Hk.
  exact (proj2 (flags_loop_spec _ _ _ _) H (S k) Hk).
Qed.

Lemma flags_loop_stable : forall flags n prev sql,
  round_flags flags sql = sql -> flags_loop (S n) flags prev sql = Some sql.
Proof.
  intros flags n prev sql H. cbn [flags_loop]. destruct (str_eqb sql prev); [reflexivity|].
  rewrite H. destruct n; cbn [flags_loop]; now destruct (str_eqb_spec sql sql).
Qed.

Lemma repl_nil : forall pat v k, repl pat v k [] = [].
Proof. reflexivity. Qed.

Lemma starts_with_nil_false : forall p pat, starts_with (p :: pat) [] = false.
Proof. reflexivity. Qed.

Lemma replace_absent : forall p pat v s,
  has_sub (p :: pat) s = false -> replace_all (p :: pat) v s = s.
Proof.
  intros p pat v s. unfold replace_all. induction s as [|c t IH]; intros H; auto.
  cbn [has_sub] in H. apply orb_false_iff in H. destruct H as [H1 H2].
  cbn [repl]. rewrite H1. rewrite IH; auto.
Qed.

Lemma round_flags_absent : forall flags sql,
  (forall f v, In (f, v) flags -> has_sub (flag_pat f) sql = false) ->
  round_flags flags sql = sql.
Proof.
  intros flags sql H. apply fold_left_stays. intros [f v] Hin. exact (replace_absent 36 _ v sql (H f v Hin)).
Qed.

Lemma use_flags_identity : forall flags sql,
  (forall f v, In (f, v) flags -> has_sub (flag_pat f) sql = false) ->
  use_flags flags sql = Some sql.
Proof. intros flags sql H. apply flags_loop_stable, round_flags_absent, H. Qed.

Lemma has_sub_needs_head : forall p pat s, ~ In p s -> has_sub (p :: pat) s = false.
Proof.
  intros p pat s. induction s as [|c t IH]; intros H; auto.
  cbn [has_sub starts_with]. rewrite IH by (intro I; apply H; right; auto).
  destruct (N.eqb_spec p c) as [->|Hn]; [exfalso; apply H; left; auto|reflexivity].
Qed.

Lemma use_flags_no_dollar : forall flags sql, ~ In 36 sql -> use_flags flags sql = Some sql.
Proof.
  intros flags sql H. apply use_flags_identity. intros f v _.
  unfold flag_pat. apply has_sub_needs_head. auto.
Qed.

Lemma dollar_scan_no_dollar : forall s, ~ In 36 s -> dollar_scan None s = [].
Proof.
  induction s as [|c t IH]; intros H; auto.
  simpl. destruct (N.eqb_spec c 36) as [->|Hn]; [exfalso; apply H; left; auto|].
  apply IH. intro I. apply H. right; auto.
Qed.

Lemma dollar_params_no_dollar : forall s, ~ In 36 s -> dollar_params s = [].
Proof. intros. unfold dollar_params. rewrite dollar_scan_no_dollar; auto. Qed.

(* the fixed point reached may still contain ${f} for a defined f whose value is not ${f}:
   two flags that refer to each other are swapped back within one round *)
Definition cyc_flags : list (str * str) := [([97], [36; 123; 98; 125]); ([98], [36; 123; 97; 125])].
Lemma use_flags_cycle_undetected :
  use_flags cyc_flags (flag_pat [97]) = Some (flag_pat [97]) /\
  lookup [97] cyc_flags = Some (flag_pat [98]) /\ flag_pat [98] <> flag_pat [97].
Proof. split; [vm_compute; reflexivity|]. split; [reflexivity|discriminate]. Qed.

Lemma parse_dq : forall s, ~ In 34 s -> parse_string_raw (34 :: s ++ [34]) = Some s.
Proof.
  intros s H. unfold parse_string_raw. rewrite rev_unit. cbv zeta. rewrite rev_involutive.
  rewrite (proj2 (existsb_eqb_false N.eqb N.eqb_eq 34 s) H). reflexivity.
Qed.

Lemma parse_triple : forall s, has_sub q3 s = false ->
  parse_string_raw (q3 ++ s ++ q3) = Some s.
Proof.
  intros s H.
  (* the last quote as a unit at the end, as in parse_dq; the two before it fall to rev_app_distr *)
  replace (q3 ++ s ++ q3) with (34 :: (34 :: 34 :: s ++ [34; 34]) ++ [34])
    by (cbn; now rewrite <- app_assoc).
  unfold parse_string_raw. rewrite rev_unit. cbv zeta. rewrite rev_involutive.
  cbn [app existsb N.eqb Pos.eqb orb negb].
  rewrite rev_app_distr. cbn [rev app]. rewrite rev_involutive, H. reflexivity.
Qed.
