(* Proofs about Lex/Split.v: Strip laws, SplitRaw join law, exact offsets of parts,
   string literals are swallowed whole by SplitRaw. *)
From Coq Require Import List Bool Arith Lia.
Import ListNotations.
From LV Require Import Lex.Traverse Lex.TraverseProofs Lex.Split.

Local Arguments step : simpl never.
Local Arguments code : simpl never.
Local Arguments ceq : simpl never.

Lemma sub_middle : forall x m y : str, sub (x ++ m ++ y) (length x) (length x + length m) = m.
Proof.
  intros. unfold sub. rewrite skipn_app, skipn_all, Nat.sub_diag. simpl.
  replace (length x + length m - length x) with (length m) by lia.
  rewrite firstn_app, firstn_all, Nat.sub_diag. apply app_nil_r.
Qed.

Lemma sub_all : forall s : str, sub s 0 (length s) = s.
Proof. intros. unfold sub. rewrite Nat.sub_0_r. simpl. apply firstn_all. Qed.

Lemma skipn_skipn : forall (l : str) y x, skipn x (skipn y l) = skipn (y + x) l.
Proof.
  intros l y. revert l. induction y as [|y IH]; intros l x; [reflexivity|].
  destruct l as [|c l]; simpl; [destruct x; reflexivity|apply IH].
Qed.

Lemma sub_sub : forall (s : str) x y u v, v <= y - x ->
  sub (sub s x y) u v = sub s (x + u) (x + v).
Proof.
  intros. unfold sub. rewrite skipn_firstn_comm. rewrite firstn_firstn.
  rewrite skipn_skipn. f_equal. lia.
Qed.

Lemma sub_length : forall (s : str) a b, b <= length s -> length (sub s a b) = b - a.
Proof. intros. unfold sub. rewrite firstn_length, skipn_length. lia. Qed.

Lemma drop_ws_app_ws : forall w x, forallb is_space w = true -> drop_ws (w ++ x) = drop_ws x.
Proof.
  induction w as [|c w IH]; intros x H; [reflexivity|].
  cbn [forallb] in H. apply andb_true_iff in H. destruct H as [H1 H2]. cbn [app drop_ws]. rewrite H1. auto.
Qed.

Lemma drop_ws_all : forall s, forallb is_space s = true -> drop_ws s = [].
Proof. intros. rewrite <- (app_nil_r s). rewrite drop_ws_app_ws by assumption. reflexivity. Qed.

Lemma drop_ws_app_r : forall s w, forallb is_space w = true ->
  drop_ws (s ++ w) = match drop_ws s with [] => [] | t => t ++ w end.
Proof.
  induction s as [|c s IH]; intros w H; cbn [app drop_ws].
  - apply drop_ws_all, H.
  - destruct (is_space c); [apply IH, H|reflexivity].
Qed.

Lemma forallb_rev : forall (f : char -> bool) l, forallb f l = true -> forallb f (rev l) = true.
Proof.
  intros f l H. rewrite forallb_forall in *. intros x Hx. apply H. apply in_rev. exact Hx.
Qed.

Theorem strip_spaces_ws : forall w1 s w2,
  forallb is_space w1 = true -> forallb is_space w2 = true ->
  strip_spaces (w1 ++ s ++ w2) = strip_spaces s.
Proof.
  intros w1 s w2 H1 H2. unfold strip_spaces. rewrite drop_ws_app_ws, drop_ws_app_r by assumption.
  destruct (drop_ws s) as [|c t]; [reflexivity|].
  rewrite rev_app_distr, drop_ws_app_ws by (apply forallb_rev; assumption). reflexivity.
Qed.

Lemma drop_ws_suffix : forall s, exists w, s = w ++ drop_ws s.
Proof.
  induction s as [|c s [w E]]; [exists []; reflexivity|].
  cbn [drop_ws]. destruct (is_space c); [|exists []; reflexivity].
  exists (c :: w). simpl. rewrite <- E. reflexivity.
Qed.

Lemma strip_spaces_middle : forall s, exists w1 w2,
  s = w1 ++ strip_spaces s ++ w2 /\
  strip_spaces_off s = (length w1, length w1 + length (strip_spaces s)).
Proof.
  intros s. destruct (drop_ws_suffix s) as [w1 E1].
  destruct (drop_ws_suffix (rev (drop_ws s))) as [w2 E2].
  apply (f_equal (@rev char)) in E2. rewrite rev_involutive, rev_app_distr in E2.
  fold (strip_spaces s) in E2.
  exists w1, (rev w2). split; [rewrite <- E2; exact E1|].
  unfold strip_spaces_off.
  replace (length s - length (drop_ws s)) with (length w1); [reflexivity|].
  rewrite E1 at 1. rewrite app_length. lia.
Qed.

Lemma strip_spaces_length : forall s, length (strip_spaces s) <= length s.
Proof.
  intros s. destruct (strip_spaces_middle s) as (w1 & w2 & E & _).
  rewrite E at 2. rewrite !app_length. lia.
Qed.

Lemma unwrap_inv : forall t m, unwrap t = Some m -> t = ch_lp :: m ++ [ch_rp].
Proof.
  intros t m H. destruct t as [|c r]; [discriminate|]. simpl in H.
  destruct (ceq c ch_lp) eqn:Ec; [|discriminate]. apply ceq_true in Ec.
  destruct (rev r) as [|d x] eqn:E; [discriminate|].
  destruct (ceq d ch_rp) eqn:Ed; [|discriminate]. apply ceq_true in Ed.
  inversion H. subst. rewrite <- (rev_involutive r), E. reflexivity.
Qed.

(* Strip's loop without the fuel: with enough of it the inner call is Strip again.  Both the
   fuel left for the inner text and that text's own length are below n. *)
Lemma strip_f_enough : forall n s, length s <= n ->
  strip_f n s = match unwrap (strip_spaces s) with
                | Some inner => if is_whole inner then strip inner else strip_spaces s
                | None => strip_spaces s
                end.
Proof.
  induction n as [n IH] using lt_wf_ind. intros s Hn. destruct n as [|n].
  - destruct s; [reflexivity|simpl in Hn; lia].
  - cbn [strip_f]. destruct (unwrap (strip_spaces s)) as [inner|] eqn:E; [|reflexivity].
    destruct (is_whole inner); [|reflexivity].
    pose proof (strip_spaces_length s) as L. rewrite (unwrap_inv _ _ E) in L.
    simpl in L. rewrite app_length in L. simpl in L.
    unfold strip. rewrite (IH n), (IH (length inner)) by lia. reflexivity.
Qed.

Lemma strip_eq : forall s,
  strip s = match unwrap (strip_spaces s) with
            | Some inner => if is_whole inner then strip inner else strip_spaces s
            | None => strip_spaces s
            end.
Proof. intros. apply strip_f_enough. reflexivity. Qed.

Lemma strip_spaces_parens : forall s,
  strip_spaces (ch_lp :: s ++ [ch_rp]) = ch_lp :: s ++ [ch_rp].
Proof.
  intros. unfold strip_spaces. change (drop_ws (ch_lp :: s ++ [ch_rp])) with (ch_lp :: s ++ [ch_rp]).
  rewrite app_comm_cons, rev_app_distr.
  change (drop_ws (rev [ch_rp] ++ rev (ch_lp :: s))) with (rev [ch_rp] ++ rev (ch_lp :: s)).
  rewrite <- rev_app_distr. apply rev_involutive.
Qed.

Lemma unwrap_parens : forall s, unwrap (ch_lp :: s ++ [ch_rp]) = Some s.
Proof.
  intros. unfold unwrap. rewrite ceq_refl, rev_app_distr. simpl.
  rewrite rev_involutive. reflexivity.
Qed.

Theorem strip_parens : forall s, is_whole s = true -> strip (ch_lp :: s ++ [ch_rp]) = strip s.
Proof. intros s H. rewrite strip_eq, strip_spaces_parens, unwrap_parens, H. reflexivity. Qed.

Theorem strip_keeps_unbalanced_parens : forall s, is_whole s = false ->
  strip (ch_lp :: s ++ [ch_rp]) = ch_lp :: s ++ [ch_rp].
Proof. intros s H. rewrite strip_eq, strip_spaces_parens, unwrap_parens, H. reflexivity. Qed.

Theorem strip_ws : forall w1 s w2,
  forallb is_space w1 = true -> forallb is_space w2 = true ->
  strip (w1 ++ s ++ w2) = strip s.
Proof.
  intros. rewrite strip_eq, (strip_eq s), strip_spaces_ws by assumption. reflexivity.
Qed.

Lemma strip_f_middle : forall n base s, exists x y,
  s = x ++ strip_f n s ++ y /\
  strip_off_f n base s = (base + length x, base + (length x + length (strip_f n s))).
Proof.
  induction n as [|n IH]; intros base s;
    destruct (strip_spaces_middle s) as (w1 & w2 & Es & Eo);
    cbn [strip_off_f strip_f]; rewrite Eo;
    pose proof (sub_middle w1 (strip_spaces s) w2) as Et; rewrite <- Es in Et.
  - exists w1, w2. auto.
  - rewrite Et. destruct (unwrap (strip_spaces s)) as [inner|] eqn:Eu; [|exists w1, w2; auto].
    destruct (is_whole inner); [|exists w1, w2; auto].
    apply unwrap_inv in Eu.
    destruct (IH (base + length w1 + 1) inner) as (x & y & Ei & Er).
    exists (w1 ++ ch_lp :: x), (y ++ ch_rp :: w2). split.
    + (* m hides the inner on the right of Ei, so that rewriting with Ei touches the left one only *)
      set (m := strip_f n inner) in *. rewrite Es, Eu, Ei.
      simpl. rewrite <- !app_assoc. reflexivity.
    + rewrite Er, app_length. simpl length. f_equal; lia.
Qed.

(* a part of SplitRaw is (start, stop, text); it is exact when text is whole[start:stop] *)
Definition txt (p : part) : str := snd p.
Definition part_exact (whole : str) (p : part) : Prop :=
  let '(a, b, t) := p in a <= b /\ b <= length whole /\ t = sub whole a b.

Lemma part_exact_middle : forall x m y : str,
  part_exact (x ++ m ++ y) (length x, length x + length m, m).
Proof.
  intros. simpl. rewrite !app_length, sub_middle. repeat split; lia.
Qed.

Theorem strip_span_exact : forall s a b, strip_off s = (a, b) ->
  a <= b /\ b <= length s /\ strip s = sub s a b.
Proof.
  intros s a b H. unfold strip_off in H.
  destruct (strip_f_middle (length s) 0 s) as (x & y & Es & Eo). fold (strip s) in *.
  rewrite Eo in H. injection H as <- <-.
  pose proof (part_exact_middle x (strip s) y) as P. rewrite <- Es in P. exact P.
Qed.

(* The runs of SplitRaw that return parts: a character is skipped as part of a separator,
   or it is a split point, or it joins the current part [cur] (which sgo keeps reversed). *)
Inductive run (sep : str) :
  cfg -> option char -> nat -> nat -> nat -> str -> str -> list part -> Prop :=
| run_end k prev idx pstart cur : run sep k prev 0 idx pstart cur [] [(pstart, idx, cur)]
| run_skip k prev skip idx pstart cur c r ps : skip <> 0 ->
    run sep (snd (advance k c r)) (Some c) (skip - nevents (fst (advance k c r))) (S idx) (S idx) [] r ps ->
    run sep k prev skip idx pstart cur (c :: r) ps
| run_cut k prev idx pstart cur c r ps :
    fst (advance k c r) = AOk [] -> sep_here sep prev (c :: r) = true ->
    run sep (snd (advance k c r)) (Some c) (length sep - 1) (S idx) (S idx) [] r ps ->
    run sep k prev 0 idx pstart cur (c :: r) ((pstart, idx, cur) :: ps)
| run_keep k prev idx pstart cur c r ps :
    run sep (snd (advance k c r)) (Some c) 0 (S idx) pstart (cur ++ [c]) r ps ->
    run sep k prev 0 idx pstart cur (c :: r) ps.

Lemma sgo_run : forall sep s k prev skip idx pstart cur ps,
  sgo sep k prev skip idx pstart cur s = SParts ps -> run sep k prev skip idx pstart (rev cur) s ps.
Proof.
  intros sep s. induction s as [|c r IH]; intros k prev skip idx pstart cur ps H; cbn [sgo] in H.
  - destruct skip; [|discriminate]. injection H as <-. constructor.
  - destruct (advance k c r) as [a k'] eqn:E.
    destruct skip as [|sk]; [|apply run_skip; [discriminate|rewrite E; apply (IH _ _ _ _ _ []), H]].
    assert (Keep : sgo sep k' (Some c) 0 (S idx) pstart (c :: cur) r = SParts ps ->
                   run sep k prev 0 idx pstart (rev cur) (c :: r) ps).
    { intro H'. apply run_keep. rewrite E. apply (IH _ _ _ _ _ (c :: cur)), H'. }
    destruct a as [[|t st]| |st| |]; try discriminate; auto.
    destruct (sep_here sep prev (c :: r)) eqn:Es; [|auto].
    destruct (sgo sep k' (Some c) (length sep - 1) (S idx) (S idx) [] r) as [ps'| |] eqn:E';
      try discriminate.
    injection H as <-. apply run_cut; rewrite ?E; auto. apply (IH _ _ _ _ _ []), E'.
Qed.

Lemma run_nonempty [sep k prev skip idx pstart cur s ps] :
  run sep k prev skip idx pstart cur s ps -> ps <> [].
Proof. induction 1; (assumption || discriminate). Qed.

(* [p0] is the text before the current part *)
Lemma run_spans [sep k prev skip idx pstart cur s ps] :
  run sep k prev skip idx pstart cur s ps ->
  forall p0, pstart = length p0 -> idx = length p0 + length cur ->
  Forall (part_exact (p0 ++ cur ++ s)) ps.
Proof.
  induction 1 as [k prev idx pstart cur|k prev skip idx pstart cur c r ps _ _ IH
                 |k prev idx pstart cur c r ps _ _ _ IH|k prev idx pstart cur c r ps _ IH];
    intros p0 Hp Hi; subst pstart idx.
  - constructor; [|constructor]. apply part_exact_middle.
  - specialize (IH (p0 ++ cur ++ [c])). rewrite <- !app_assoc in IH.
    apply IH; rewrite !app_length; simpl; lia.
  - constructor; [apply part_exact_middle|].
    specialize (IH (p0 ++ cur ++ [c])). rewrite <- !app_assoc in IH.
    apply IH; rewrite !app_length; simpl; lia.
  - specialize (IH p0). rewrite <- !app_assoc in IH. apply IH; rewrite ?app_length; simpl; lia.
Qed.

Theorem split_raw_spans : forall sep s ps, split_raw sep s = SParts ps -> Forall (part_exact s) ps.
Proof.
  intros sep s ps H. apply sgo_run in H. exact (run_spans H [] eq_refl eq_refl).
Qed.

(* pending annotations are either silent or stand for the quotes of a triple quote; an OK at
   any other character therefore comes from a step, and names the state that step leaves *)
Fixpoint pend_ok (pend : list annot) (s : str) : Prop :=
  match pend, s with
  | [], _ => True
  | a :: p, c :: r => (a = ASilent \/ ceq c ch_dq = true) /\ pend_ok p r
  | _ :: _, [] => False
  end.

Definition cfg_ok (k : cfg) (s : str) : Prop :=
  match k with Run pend _ => pend_ok pend s | Dead => True end.

Lemma advance_ok : forall k c r, cfg_ok k (c :: r) -> cfg_ok (snd (advance k c r)) r.
Proof.
  intros [[|x p] st|] c r Hk; simpl; [|exact (proj2 Hk)|exact I].
  destruct (step_shaped st c r) as [s|s|s|s|s E|x y s E]; simpl; auto.
  - unfold starts3 in E. destruct r as [|d [|e r']]; try (rewrite andb_false_r in E; discriminate).
    apply andb_true_iff in E. destruct E as [_ E]. apply andb_true_iff in E. tauto.
  - unfold starts2 in E. destruct r; [rewrite andb_false_r in E; discriminate|]. auto.
Qed.

Lemma advance_ok_state : forall k c r st, cfg_ok k (c :: r) -> ceq c ch_dq = false ->
  fst (advance k c r) = AOk st -> snd (advance k c r) = Run [] st.
Proof.
  intros [[|x p] st0|] c r st Hk Hq; simpl; [| |discriminate].
  - destruct (step_shaped st0 c r) as [s|s|s|s|s E|x y s E]; simpl; intro H; try discriminate.
    + inversion H. reflexivity.
    + unfold starts3 in E. rewrite Hq in E. discriminate.
  - intro H. destruct Hk as [[Hk|Hk] _]; congruence.
Qed.

(* characters that the scanner passes through unchanged at top level *)
Definition plain (c : char) : bool :=
  negb (ceq c ch_hash || ceq c ch_dq || ceq c ch_sq || ceq c ch_bt || ceq c ch_slash ||
        is_open c || ceq c ch_rp || ceq c ch_rc || ceq c ch_rb).

Lemma step_plain : forall c r, plain c = true -> step [] c r = yield_ [].
Proof.
  intros c r H. unfold plain in H. apply negb_true_iff in H.
  apply orb_false_elim in H as
    [[[[[[[[Hh Hd]%orb_false_elim Hs]%orb_false_elim Hb]%orb_false_elim Hsl]%orb_false_elim
        Ho]%orb_false_elim Hrp]%orb_false_elim Hrc]%orb_false_elim Hrb].
  unfold step, code, starts3, starts2, tracked, close_to_open.
  rewrite Hh, Hd, Hs, Hb, Hsl, Ho, Hrp, Hrc, Hrb. reflexivity.
Qed.

Lemma prefix_app : forall p s, prefix p s = true -> exists s2, s = p ++ s2.
Proof.
  induction p as [|a p IH]; intros s H; [exists s; reflexivity|].
  destruct s as [|b s]; [discriminate|]. simpl in H.
  apply andb_true_iff in H. destruct H as [H1 H2]. apply ceq_true in H1. subst b.
  destruct (IH s H2) as [s2 E]. exists s2. rewrite E. reflexivity.
Qed.

Lemma advance_run : forall st c r,
  advance (Run [] st) c r =
  (sr_ann (step st c r), if sr_stop (step st c r) then Dead else Run (sr_pend (step st c r)) (sr_st (step st c r))).
Proof. reflexivity. Qed.

(* [t] is what is left to skip of a separator; the scanner reads it as plain code, one event
   for each character, so that the next part begins right behind it *)
Lemma run_join [c0 tl0 k prev skip idx pstart cur s ps] :
  ceq c0 ch_dq = false -> forallb plain tl0 = true ->
  run (c0 :: tl0) k prev skip idx pstart cur s ps ->
  forall t s2, s = t ++ s2 -> length t = skip -> forallb plain t = true ->
  (skip <> 0 -> k = Run [] [] /\ cur = []) -> cfg_ok k s ->
  join (c0 :: tl0) (map txt ps) = cur ++ s2.
Proof.
  intros head_not_quote tail_plain.
  induction 1 as [k prev idx pstart cur|k prev skip idx pstart cur c r ps Hs _ IH
                 |k prev idx pstart cur c r ps Ea Es Hr IH|k prev idx pstart cur c r ps _ IH];
    intros t s2 Et Hl Hp Hm Hk.
  - symmetry in Et. apply app_eq_nil in Et. destruct Et as [_ ->].
    simpl. rewrite app_nil_r. reflexivity.
  - destruct (Hm Hs) as [-> ->]. destruct t as [|c' t']; [simpl in Hl; congruence|].
    injection Et as <- ->. simpl in Hp. apply andb_true_iff in Hp. destruct Hp as [Hc Hp].
    rewrite advance_run, (step_plain _ _ Hc) in IH. cbn in IH.
    apply (IH t' s2); auto. simpl in Hl. lia.
  - destruct t; [|discriminate Hl]. simpl in Et. subst s2.
    unfold sep_here in Es. do 3 (apply andb_true_iff in Es; destruct Es as [Es _]).
    apply prefix_app in Es. destruct Es as [s3 Es]. injection Es as -> ->.
    rewrite (advance_ok_state _ _ _ _ Hk head_not_quote Ea) in IH, Hr.
    assert (El : length tl0 = length (c0 :: tl0) - 1) by (simpl; lia).
    specialize (IH tl0 s3 eq_refl El tail_plain (fun _ => conj eq_refl eq_refl) I).
    apply run_nonempty in Hr. destruct ps as [|q qs]; [contradiction Hr; reflexivity|].
    change (join (c0 :: tl0) (map txt ((pstart, idx, cur) :: q :: qs)))
      with (cur ++ (c0 :: tl0) ++ join (c0 :: tl0) (map txt (q :: qs))).
    rewrite IH. reflexivity.
  - destruct t; [|discriminate Hl]. simpl in Et. subst s2.
    rewrite (IH [] r eq_refl eq_refl eq_refl); [|easy|apply advance_ok, Hk].
    simpl. rewrite <- app_assoc. reflexivity.
Qed.

Theorem split_join : forall sep c0 tl0 s ps,
  sep = c0 :: tl0 -> ceq c0 ch_dq = false -> forallb plain tl0 = true ->
  split_raw sep s = SParts ps -> join sep (map txt ps) = s.
Proof.
  intros sep c0 tl0 s ps -> Hq Hp H. apply sgo_run in H.
  apply (run_join Hq Hp H [] s); easy.
Qed.

(* annotations at which SplitRaw neither cuts nor raises *)
Definition inert (a : annot) : Prop :=
  match a with AOk (_ :: _) | ASilent => True | _ => False end.

Lemma sgo_idle : forall sep st a rest body, idle st a rest body -> inert a ->
  forall prev idx pstart cur,
  sgo sep (Run [] st) prev 0 idx pstart cur (body ++ rest) =
  sgo sep (Run [] st) (fold_left (fun _ c => Some c) body prev) 0 (idx + length body) pstart (rev body ++ cur) rest.
Proof.
  intros sep st a rest body H Ha. induction H as [|c b E _ IH]; intros prev idx pstart cur.
  - simpl. rewrite Nat.add_0_r. reflexivity.
  - simpl app. cbn [sgo]. rewrite advance_run, E. cbn [sr_ann sr_stop sr_pend sr_st].
    simpl rev. simpl length. rewrite <- app_assoc, Nat.add_succ_r.
    destruct a as [[|t s]| | | |]; try contradiction; apply IH.
Qed.

Theorem split_swallows_dq : forall sep c0 tl0, sep = c0 :: tl0 -> ceq c0 ch_dq = false ->
  forall body st prev idx pstart cur rest,
  code_state st = true -> no_char ch_dq body = true -> no_char ch_nl body = true ->
  not_triple body rest ->
  sgo sep (Run [] st) prev 0 idx pstart cur (ch_dq :: body ++ ch_dq :: rest) =
  sgo sep (Run [] st) (Some ch_dq) 0 (idx + length body + 2) pstart
      (ch_dq :: rev body ++ ch_dq :: cur) rest.
Proof.
  intros sep c0 tl0 Es Hq body st prev idx pstart cur rest Hc H1 H2 H3.
  cbn [sgo]. rewrite advance_run, step_code, code_open_dq by assumption. simpl.
  rewrite (sgo_idle sep _ _ _ _ (idle_dq st _ body H1 H2) I).
  cbn [sgo]. rewrite advance_run, step_dq.
  change (ceq ch_dq ch_nl) with false. rewrite ceq_refl. simpl.
  replace (idx + length body + 2) with (S (S (idx + length body))) by lia.
  (* the closing quote is no split point: the separator does not begin with a quote *)
  assert (E : forall p, sep_here sep p (ch_dq :: rest) = false).
  { intro p. unfold sep_here. rewrite Es. cbn [prefix]. rewrite Hq. reflexivity. }
  destruct st; rewrite ?E; reflexivity.
Qed.
