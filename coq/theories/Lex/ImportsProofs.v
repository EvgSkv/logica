(* C12 — proofs about Lex/Imports.v: equality tests, the lexical facts about prefixes (the prefix
   loop, injectivity of prefixing) and sequential vs. simultaneous renaming.  The driver is in
   ImportsDriver.v. *)
From Coq Require Import List Bool NArith Lia.
Import ListNotations.
From LV Require Import Util.ListFacts Lex.Imports.

Lemma name_eqb_eq : forall a b, name_eqb a b = true <-> a = b.
Proof. apply (list_eqb_eq N.eqb); [apply N.eqb_eq | intros [|] [|]; reflexivity]. Qed.

Lemma name_eqb_refl : forall a, name_eqb a a = true.
Proof. intro a. apply name_eqb_eq. reflexivity. Qed.

Lemma name_eqb_neq : forall a b, name_eqb a b = false <-> a <> b.
Proof. exact (eqb_false_iff name_eqb name_eqb_eq). Qed.

Lemma name_eqbP : forall a b, reflect (a = b) (name_eqb a b).
Proof. intros a b. apply iff_reflect. symmetry. apply name_eqb_eq. Qed.

Lemma path_eqb_eq : forall a b, path_eqb a b = true <-> a = b.
Proof. apply (list_eqb_eq name_eqb); [apply name_eqb_eq | intros [|] [|]; reflexivity]. Qed.

Lemma path_eqb_refl : forall a, path_eqb a a = true.
Proof. intro a. apply path_eqb_eq. reflexivity. Qed.

Lemma path_eqbP : forall a b, reflect (a = b) (path_eqb a b).
Proof. intros a b. apply iff_reflect. symmetry. apply path_eqb_eq. Qed.

Lemma mem_In : forall x l, mem x l = true <-> In x l.
Proof. exact (existsb_eqb_In name_eqb name_eqb_eq). Qed.

Lemma mem_false : forall x l, mem x l = false <-> ~ In x l.
Proof. exact (existsb_eqb_false name_eqb name_eqb_eq). Qed.

Lemma extend_fresh : forall existing exts pre q,
  extend existing exts pre = Some q -> ~ In q existing.
Proof.
  intros existing exts. induction exts as [|e exts IH]; intros pre q H; simpl in H;
    destruct (mem pre existing) eqn:E; try (injection H as <-; apply mem_false; assumption).
  - discriminate.
  - eapply IH. eassumption.
Qed.

Lemma file_prefix_fresh : forall m existing p q,
  file_prefix m existing p = Some q -> ~ In q existing.
Proof. intros m existing p q H. unfold file_prefix in H. eapply extend_fresh. eassumption. Qed.

(* parse.py as it is: on a collision of capitalised base names the loop cannot succeed *)
Lemma py_loop_no_extension : forall existing p,
  file_prefix Py existing p =
  if mem (capitalize (last p []) ++ [underscore]) existing then None
  else Some (capitalize (last p []) ++ [underscore]).
Proof. reflexivity. Qed.

Lemma count_upper_app : forall a b, count_upper (a ++ b) = count_upper a + count_upper b.
Proof. intros. unfold count_upper. rewrite filter_app, app_length. reflexivity. Qed.

Lemma count_upper_cons : forall c s,
  count_upper (c :: s) = (if is_upper c then 1 else 0) + count_upper s.
Proof. intros c s. unfold count_upper. simpl. destruct (is_upper c); reflexivity. Qed.

Lemma no_upper_count : forall s, no_upper s = true -> count_upper s = 0.
Proof.
  induction s as [|c s IH]; simpl; intro H; auto.
  apply andb_true_iff in H. destruct H as [H1 H2]. apply negb_true_iff in H1.
  rewrite count_upper_cons, H1. auto.
Qed.

Lemma low_not_upper : forall c, is_upper (low c) = false.
Proof.
  intro c. unfold low. destruct (is_upper c) eqn:E; auto.
  unfold is_upper in *. apply andb_true_iff in E. destruct E as [E1 E2].
  apply N.leb_le in E1. apply N.leb_le in E2.
  apply andb_false_iff. right. apply N.leb_gt. lia.
Qed.

Lemma up_lower_is_upper : forall c, is_lower c = true -> is_upper (up c) = true.
Proof.
  intros c H. unfold up. rewrite H. unfold is_lower, is_upper in *.
  apply andb_true_iff in H. destruct H as [H1 H2]. apply N.leb_le in H1. apply N.leb_le in H2.
  apply andb_true_iff. split; apply N.leb_le; lia.
Qed.

Lemma count_upper_map_low : forall s, count_upper (map low s) = 0.
Proof.
  induction s as [|c s IH]; auto. simpl. rewrite count_upper_cons, low_not_upper. assumption.
Qed.

Lemma capitalize_count : forall c t, is_lower c = true -> count_upper (capitalize (c :: t)) = 1.
Proof.
  intros c t H. unfold capitalize.
  rewrite count_upper_cons, count_upper_map_low, up_lower_is_upper by assumption. reflexivity.
Qed.

Lemma extend_count : forall existing exts pre q,
  extend existing exts pre = Some q -> (forall e, In e exts -> count_upper e = 0) ->
  count_upper q = count_upper pre.
Proof.
  intros existing exts. induction exts as [|e exts IH]; intros pre q H Hz; simpl in H;
    destruct (mem pre existing); try (injection H as <-; reflexivity).
  - discriminate.
  - apply IH in H.
    + rewrite H, count_upper_app, (Hz e) by (left; reflexivity). reflexivity.
    + intros e' He'. apply Hz. right. assumption.
Qed.

Lemma In_removelast : forall (A : Type) (l : list A) x, In x (removelast l) -> In x l.
Proof.
  induction l as [|a l IH]; simpl; intros x H; auto.
  destruct l as [|b l]; simpl in *; auto. destruct H as [H|H]; auto.
Qed.

Lemma In_tl : forall (A : Type) (l : list A) x, In x (tl l) -> In x l.
Proof. intros A l x H. destruct l; simpl in *; auto. Qed.

Lemma In_ext_parts : forall m p e, In e (ext_parts m p) -> In e p.
Proof.
  intros m p e H. destruct m; simpl in H.
  - contradiction.
  - apply in_rev in H. apply In_tl in H. apply In_removelast in H. assumption.
  - apply in_rev in H. apply In_removelast in H. assumption.
Qed.

Lemma file_prefix_one_upper : forall m existing p q,
  lexical_ok p = true -> file_prefix m existing p = Some q -> count_upper q = 1.
Proof.
  intros m existing p q Hl H. unfold lexical_ok in Hl. apply andb_true_iff in Hl. destruct Hl as [Hc Hb].
  unfold file_prefix in H. apply extend_count in H.
  - rewrite H, count_upper_app. destruct (last p []) as [|c t]; try discriminate.
    rewrite capitalize_count by assumption. reflexivity.
  - intros e He. apply In_ext_parts in He. apply no_upper_count.
    rewrite forallb_forall in Hc. apply Hc. assumption.
Qed.

(* n begins at the capital letter of p ++ n that follows the count_upper p capitals of p *)
Lemma prefix_injective : forall p1 p2 n1 n2,
  count_upper p1 = count_upper p2 -> starts_upper n1 = true -> starts_upper n2 = true ->
  p1 ++ n1 = p2 ++ n2 -> p1 = p2 /\ n1 = n2.
Proof.
  induction p1 as [|c p1 IH]; intros [|d p2] n1 n2 Hc H1 H2 E; simpl in *.
  - auto.
  - subst n1. simpl in H1. rewrite count_upper_cons, H1 in Hc. discriminate.
  - subst n2. simpl in H2. rewrite count_upper_cons, H2 in Hc. discriminate.
  - injection E as <- E. rewrite !count_upper_cons in Hc.
    destruct (IH p2 n1 n2) as [-> ->]; auto. lia.
Qed.

Lemma subst_rule_ext : forall f g r, (forall x, f x = g x) -> subst_rule f r = subst_rule g r.
Proof.
  intros f g r H. unfold subst_rule. f_equal; auto.
  - destruct (r_made r); simpl; f_equal; auto.
  - apply map_ext. assumption.
Qed.

Lemma rn_rule_subst : forall o n r, rn_rule o n r = subst_rule (rn o n) r.
Proof. reflexivity. Qed.

Lemma subst_rule_comp : forall f g r, subst_rule f (subst_rule g r) = subst_rule (fun x => f (g x)) r.
Proof.
  intros f g r. unfold subst_rule. simpl. f_equal.
  - destruct (r_made r); reflexivity.
  - apply map_map.
Qed.

Lemma subst_rule_id : forall r, subst_rule (fun x => x) r = r.
Proof. intros [h md b]. unfold subst_rule. simpl. rewrite map_id. destruct md; reflexivity. Qed.

Lemma apply_renames_app : forall L1 L2 rs,
  apply_renames (L1 ++ L2) rs = apply_renames L2 (apply_renames L1 rs).
Proof. induction L1 as [|[o n] L1 IH]; intros; simpl; auto. Qed.

Lemma first_match_untouched : forall L x, ~ In x (map fst L) -> first_match L x = x.
Proof.
  induction L as [|[o n] L IH]; intros x H; simpl; auto.
  destruct (name_eqbP x o) as [->|_].
  - destruct H. left. reflexivity.
  - apply IH. intro Hin. apply H. right. assumption.
Qed.

Lemma apply_renames_simultaneous : forall L rs,
  nocap L = true -> apply_renames L rs = map (subst_rule (first_match L)) rs.
Proof.
  induction L as [|[o n] L IH]; intros rs H; simpl.
  - rewrite (map_ext _ _ subst_rule_id). symmetry. apply map_id.
  - simpl in H. apply andb_true_iff in H. destruct H as [H1 H2]. apply negb_true_iff in H1.
    rewrite IH by assumption. unfold rename_all. rewrite map_map. apply map_ext. intro r.
    rewrite rn_rule_subst, subst_rule_comp. apply subst_rule_ext. intro x.
    (* the new name of the first step is no old name of a later one: the later steps leave it *)
    unfold rn. destruct (name_eqb x o); [|reflexivity].
    apply first_match_untouched. apply mem_false. assumption.
Qed.

Lemma first_match_own : forall pre os x,
  first_match (map (fun o => (o, pre ++ o)) os) x = if mem x os then pre ++ x else x.
Proof.
  induction os as [|o os IH]; intro x; simpl; auto.
  destruct (name_eqbP x o) as [->|_]; simpl; [reflexivity | apply IH].
Qed.

Lemma nocap_own : forall pre os,
  (forall o o', In o os -> In o' os -> pre ++ o <> o') -> nocap (map (fun o => (o, pre ++ o)) os) = true.
Proof.
  induction os as [|o os IH]; intro H; simpl; auto.
  apply andb_true_iff. split.
  - apply negb_true_iff. apply mem_false. rewrite map_map. simpl. rewrite map_id.
    intro Hin. apply (H o (pre ++ o)); auto. left. reflexivity. right. assumption.
  - apply IH. intros a b Ha Hb. apply H; right; assumption.
Qed.

(* the file's own predicates: the substitution does not depend on the iteration order of the set *)
Lemma own_order_irrelevant : forall pre os os' rs,
  (forall x, In x os <-> In x os') ->
  (forall o o', In o os -> In o' os -> pre ++ o <> o') ->
  apply_renames (map (fun o => (o, pre ++ o)) os) rs = apply_renames (map (fun o => (o, pre ++ o)) os') rs.
Proof.
  intros pre os os' rs Hs Hn.
  rewrite !apply_renames_simultaneous.
  - apply map_ext. intro r. apply subst_rule_ext. intro x. rewrite !first_match_own.
    rewrite (eq_true_iff_eq (mem x os) (mem x os')); [reflexivity|]. rewrite !mem_In. apply Hs.
  - apply nocap_own. intros o o' Ho Ho'. apply Hn; apply Hs; assumption.
  - apply nocap_own. assumption.
Qed.
