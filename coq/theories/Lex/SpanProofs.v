(* Proofs about Lex/Span.v: a slice with a non-negative start of a well-formed heritage-aware
   string is well formed (its text is literally heritage[start:stop]); the parts of SplitRaw,
   taken as slices, are well formed; a negative start breaks it. *)
From Coq Require Import List ZArith Lia.
Import ListNotations.
From LV Require Import Lex.Traverse Lex.Split Lex.SplitProofs Lex.Span.

Local Open Scope Z_scope.

(* side conditions through Z2Nat one at a time: lia splits cases on every Z.to_nat it meets *)
Lemma sub_sub_Z : forall (s : str) x y u v, 0 <= x -> 0 <= u <= v -> x + v <= y ->
  sub (sub s (Z.to_nat x) (Z.to_nat y)) (Z.to_nat u) (Z.to_nat v) =
  sub s (Z.to_nat (x + u)) (Z.to_nat (x + v)).
Proof.
  intros s x y u v Hx Hu Hy. rewrite !Z2Nat.inj_add by lia. apply sub_sub.
  rewrite <- Z2Nat.inj_sub by lia. apply Z2Nat.inj_le; lia.
Qed.

Lemma norm_idx_id : forall n i, 0 <= i <= n -> norm_idx n i = i.
Proof. intros n i H. unfold norm_idx. destruct (Z.ltb_spec i 0); lia. Qed.

Lemma norm_stop_id : forall n b, 0 <= b <= n -> norm_stop n b = b.
Proof.
  intros n b H. unfold norm_stop. destruct (Z.gtb_spec b n); [lia|].
  destruct (Z.ltb_spec b 0); lia.
Qed.

Lemma norm_stop_le : forall n b, 0 <= n -> norm_stop n b <= n.
Proof.
  intros n b H. unfold norm_stop.
  destruct (Z.gtb_spec b n); [destruct (Z.ltb_spec n 0)|destruct (Z.ltb_spec b 0)]; lia.
Qed.

(* GetSlice computes the stop offset by its own rule, not by that of str slicing; the two
   agree unless the stop falls before the beginning of the text *)
Lemma norm_stop_idx : forall n b, 0 <= n -> 0 <= norm_stop n b -> norm_idx n b = norm_stop n b.
Proof.
  intros n b Hn. unfold norm_stop, norm_idx.
  destruct (Z.gtb_spec b n); cbv zeta; [destruct (Z.ltb_spec n 0)|]; destruct (Z.ltb_spec b 0); lia.
Qed.

Lemma wf_zlen : forall h, wf h -> zlen (h_text h) = h_stop h - h_start h.
Proof.
  intros h (W1 & W2 & W3 & W4). unfold zlen in *. rewrite W4, sub_length by lia. lia.
Qed.

Lemma py_slice_exact : forall s a b, 0 <= a <= norm_stop (zlen s) b ->
  py_slice s a b = sub s (Z.to_nat a) (Z.to_nat (norm_stop (zlen s) b)).
Proof.
  intros s a b H. pose proof (norm_stop_le (zlen s) b (Nat2Z.is_nonneg _)).
  unfold py_slice. rewrite norm_idx_id, norm_stop_idx by (unfold zlen in *; lia). reflexivity.
Qed.

Theorem get_slice_exact : forall h a b,
  wf h -> 0 <= a -> a <= norm_stop (zlen (h_text h)) b ->
  wf (get_slice h a b) /\
  h_text (get_slice h a b) =
    sub (h_text h) (Z.to_nat a) (Z.to_nat (norm_stop (zlen (h_text h)) b)).
Proof.
  intros h a b W Ha Hb.
  pose proof (py_slice_exact (h_text h) a b (conj Ha Hb)) as Ht. split; [|exact Ht].
  pose proof (wf_zlen h W) as Hlen.
  pose proof (norm_stop_le (zlen (h_text h)) b (Nat2Z.is_nonneg _)) as Hn.
  destruct W as (W1 & W2 & W3 & W4).
  unfold wf, get_slice. cbn [h_text h_her h_start h_stop]. repeat split; try lia.
  rewrite Ht. rewrite W4 at 1. apply sub_sub_Z; lia.
Qed.

Lemma fresh_wf : forall s, wf (fresh s).
Proof.
  intros. unfold wf, fresh, zlen. simpl. repeat split; try lia.
  rewrite Nat2Z.id. symmetry. apply sub_all.
Qed.

Theorem get_slice_negative_start_not_exact :
  exists h a b, wf h /\ a < 0 /\ ~ wf (get_slice h a b).
Proof.
  exists (fresh [97%N; 98%N; 99%N]), (-1), 3. split; [apply fresh_wf|split; [lia|]].
  unfold wf, get_slice, fresh. simpl. intros [H _]. lia.
Qed.

Theorem split_raw_parts_exact : forall h sep ps,
  wf h -> split_raw sep (h_text h) = SParts ps ->
  Forall (fun p => wf (part_slice h p) /\ h_text (part_slice h p) = txt p) ps.
Proof.
  intros h sep ps W H. apply split_raw_spans in H.
  eapply Forall_impl; [|exact H]. intros [[a b] t] [P1 [P2 P3]]. unfold part_slice, txt. simpl snd.
  assert (Hb : norm_stop (zlen (h_text h)) (Z.of_nat b) = Z.of_nat b)
    by (apply norm_stop_id; unfold zlen; lia).
  destruct (get_slice_exact h (Z.of_nat a) (Z.of_nat b) W) as [G1 G2]; [lia|rewrite Hb; lia|].
  split; [exact G1|]. rewrite G2, Hb, !Nat2Z.id. symmetry. exact P3.
Qed.
