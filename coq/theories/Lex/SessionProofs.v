(* C13 — proofs about Lex/Session.v. *)
From Coq Require Import List Bool NArith.
Import ListNotations.
From LV Require Import Lex.Session.
Open Scope N_scope.

(* parse.py as it is (EnactIncantations sets the switch anew for every main file): the tree of a main
   file is a function of its text: no history, no initial state *)
Theorem history_free_if_reset : forall history st t,
  run parse_step_reset st history t = read (has_incantation t) t.
Proof.
  induction history as [|h hs IH]; intros st t; simpl.
  - reflexivity.
  - apply IH.
Qed.

(* parse.py before /repo fix db04ac5 (the switch only ever turned on): the tree depends on the history
   exactly through "some earlier main file (or the state before) had the switch on" *)
Theorem sticky_characterised : forall history st t,
  run parse_step_sticky st history t =
  read (too_much st || existsb has_incantation history || has_incantation t) t.
Proof.
  induction history as [|h hs IH]; intros st t; simpl.
  - rewrite orb_false_r. reflexivity.
  - rewrite IH. simpl. rewrite <- !orb_assoc. reflexivity.
Qed.

Corollary sticky_history_free_without_incantation : forall history t,
  existsb has_incantation history = false ->
  run parse_step_sticky fresh history t = run parse_step_sticky fresh [] t.
Proof.
  intros history t H. rewrite !sticky_characterised. rewrite H. reflexivity.
Qed.

(* the witness: "# <incantation>" first, then the plain text 2*F(3) *)
Definition w_first : text := [35; 32] ++ incantation.
Definition w_plain : text := [50; 42; 70; 40; 51; 41].

Example w_plain_has_no_incantation : has_incantation w_plain = false.
Proof. vm_compute. reflexivity. Qed.
Example w_fresh : run parse_step_sticky fresh [] w_plain = Times [50] (Call [70] [51]).
Proof. vm_compute. reflexivity. Qed.
Example w_after : run parse_step_sticky fresh [w_first] w_plain = Call [50; 42; 70] [51].
Proof. vm_compute. reflexivity. Qed.

Theorem history_dependent_refuted :
  exists history t, has_incantation t = false /\
    run parse_step_sticky fresh history t <> run parse_step_sticky fresh [] t.
Proof.
  exists [w_first], w_plain. split.
  - exact w_plain_has_no_incantation.
  - rewrite w_fresh, w_after. discriminate.
Qed.
