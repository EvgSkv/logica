(* Proofs about the scanner model (Lex/Traverse.v): comments are transparent and string contents
   opaque in every scanner state that reads code, for every comment / string body and every
   continuation of the text. *)
From Coq Require Import List Bool NArith Lia.
Import ListNotations.
From LV Require Import Lex.Traverse.

Local Arguments step : simpl never.
Local Arguments code : simpl never.
Local Arguments ceq : simpl never.

Lemma ceq_true : forall a b, ceq a b = true -> a = b.
Proof. intros a b H. apply N.eqb_eq. exact H. Qed.
Lemma ceq_refl : forall a, ceq a a = true.
Proof. intros. apply N.eqb_refl. Qed.

Lemma is_open_cases : forall t, is_open t = true -> t = ch_lp \/ t = ch_lc \/ t = ch_lb.
Proof.
  intros t H. unfold is_open in H.
  apply orb_true_iff in H. destruct H as [H|H].
  - apply orb_true_iff in H. destruct H as [H|H]; apply ceq_true in H; auto.
  - apply ceq_true in H; auto.
Qed.

Lemma step_code : forall st c r, code_state st = true -> step st c r = code st c r.
Proof.
  intros st c r H. destruct st as [|t st]; [reflexivity|].
  simpl in H. apply is_open_cases in H. destruct H as [H|[H|H]]; subst t; reflexivity.
Qed.

Lemma step_slash : forall st c r,
  step (ch_slash :: st) c r =
  if starts2 ch_star ch_slash c r then mkres ASilent [ASilent] st false else silent (ch_slash :: st).
Proof. reflexivity. Qed.
Lemma step_hash : forall st c r,
  step (ch_hash :: st) c r = if ceq c ch_nl then yield_ st else silent (ch_hash :: st).
Proof. reflexivity. Qed.
Lemma step_dq : forall st c r,
  step (ch_dq :: st) c r =
  if ceq c ch_nl then mkres (AEol (ch_dq :: st)) [] (ch_dq :: st) false
  else if ceq c ch_dq then yield_ st else yield_ (ch_dq :: st).
Proof. reflexivity. Qed.
Lemma step_bt : forall st c r,
  step (ch_bt :: st) c r = if ceq c ch_bt then yield_ st else yield_ (ch_bt :: st).
Proof. reflexivity. Qed.
Lemma step_sq : forall st c r,
  step (ch_sq :: st) c r =
  if ceq c ch_sq then yield_ st
  else if ceq c ch_bs then yield_ (ch_bs :: ch_sq :: st) else yield_ (ch_sq :: st).
Proof. reflexivity. Qed.
Lemma step_3 : forall st c r,
  step (ch_3 :: st) c r =
  if starts3 ch_dq c r then mkres (AOk st) [AOk st; AOk st] st false else yield_ (ch_3 :: st).
Proof. reflexivity. Qed.

(* every branch of the scanner ends in one of six ways; only the two that look ahead
   queue annotations for the characters they looked at *)
Inductive step_shape (c : char) (r : str) : stepres -> Prop :=
| sh_yield s : step_shape c r (yield_ s)
| sh_silent s : step_shape c r (silent s)
| sh_eol s : step_shape c r (mkres (AEol s) [] s false)
| sh_unmatched s : step_shape c r (mkres AUnmatched [] s true)
| sh_triple s : starts3 ch_dq c r = true -> step_shape c r (mkres (AOk s) [AOk s; AOk s] s false)
| sh_comment x y s : starts2 x y c r = true -> step_shape c r (mkres ASilent [ASilent] s false).

Lemma tracked_shape : forall st c r, step_shape c r (tracked st c).
Proof.
  intros. unfold tracked. destruct (is_open c); [constructor|].
  destruct (close_to_open c) as [o|]; [|constructor].
  destruct st as [|t st']; [constructor|]. destruct (ceq t o); constructor.
Qed.

Lemma code_shape : forall st c r, step_shape c r (code st c r).
Proof.
  intros. unfold code.
  destruct (ceq c ch_hash); [constructor|].
  destruct (starts3 ch_dq c r) eqn:E3; [constructor; exact E3|].
  destruct (ceq c ch_dq); [constructor|]. destruct (ceq c ch_sq); [constructor|].
  destruct (ceq c ch_bt); [constructor|].
  destruct (starts2 ch_slash ch_star c r) eqn:E2; [econstructor; exact E2|].
  apply tracked_shape.
Qed.

Lemma step_shaped : forall st c r, step_shape c r (step st c r).
Proof.
  intros [|top below] c r; [apply code_shape|]. unfold step.
  destruct (ceq top ch_hash); [destruct (ceq c ch_nl); constructor|].
  destruct (ceq top ch_dq); [destruct (ceq c ch_nl); [|destruct (ceq c ch_dq)]; constructor|].
  destruct (ceq top ch_sq); [destruct (ceq c ch_sq); [|destruct (ceq c ch_bs)]; constructor|].
  destruct (ceq top ch_bs); [apply tracked_shape|].
  destruct (ceq top ch_bt); [destruct (ceq c ch_bt); constructor|].
  destruct (ceq top ch_3); [destruct (starts3 ch_dq c r) eqn:E; [constructor; exact E|constructor]|].
  destruct (ceq top ch_slash);
    [destruct (starts2 ch_star ch_slash c r) eqn:E; [econstructor; exact E|constructor]|].
  apply code_shape.
Qed.

(* The scanner idles over [body] (followed by [rest]) in state [st]: every character leaves
   the stack as it is, queues nothing and is annotated [a].  Comment and string bodies are
   read this way; what differs between them is only the condition under which they are. *)
Inductive idle (st : stack) (a : annot) (rest : str) : str -> Prop :=
| idle_nil : idle st a rest []
| idle_cons c b : step st c (b ++ rest) = mkres a [] st false -> idle st a rest b ->
                  idle st a rest (c :: b).

Lemma ann_idle : forall st a rest body, idle st a rest body ->
  ann (Run [] st) (body ++ rest) = repeat a (length body) ++ ann (Run [] st) rest.
Proof.
  intros st a rest body H. induction H as [|c b E _ IH]; [reflexivity|].
  simpl. rewrite E. simpl. rewrite IH. reflexivity.
Qed.

Lemma ann_pend : forall st p q r, length q = length p ->
  ann (Run p st) (q ++ r) = p ++ ann (Run [] st) r.
Proof.
  intros st p. induction p as [|a p IH]; intros q r H.
  - destruct q; [reflexivity|discriminate].
  - destruct q as [|c q]; [discriminate|]. simpl. rewrite IH by (injection H; auto). reflexivity.
Qed.

(* How every comment and string literal is read: in code the scanner meets a delimiter
   [c :: ds], decides the annotation of all its characters at the first, and changes to a
   state in which it idles over the body.  The closing delimiter is the beginning of [rest];
   the theorems below leave what it does to conversion. *)
Lemma ann_open : forall st st' c ds a body b rest,
  code_state st = true ->
  code st c (ds ++ body ++ rest) = mkres a (repeat a (length ds)) st' false ->
  idle st' b rest body ->
  ann (Run [] st) (c :: ds ++ body ++ rest) =
  a :: repeat a (length ds) ++ repeat b (length body) ++ ann (Run [] st') rest.
Proof.
  intros st st' c ds a body b rest Hc E H. simpl. rewrite step_code, E by assumption. simpl.
  rewrite ann_pend by (symmetry; apply repeat_length). rewrite (ann_idle _ _ _ _ H). reflexivity.
Qed.

(* where the scanner does not look ahead, a condition on the characters is enough *)
Lemma idle_chars : forall st a rest body,
  (forall c, In c body -> forall r, step st c r = mkres a [] st false) -> idle st a rest body.
Proof.
  intros st a rest body H%Forall_forall. induction H as [|c b E _ IH]; constructor; [apply E|exact IH].
Qed.

(* q does not occur in b: how the body of a comment or literal is said not to end early *)
Definition no_char (q : char) (b : str) : bool := forallb (fun c => negb (ceq c q)) b.

Lemma no_char_In : forall q b c, no_char q b = true -> In c b -> ceq c q = false.
Proof.
  intros q b c H Hc. apply negb_true_iff. exact (proj1 (forallb_forall _ _) H c Hc).
Qed.

(* the body contains no star-slash *)
Fixpoint no_close (b : str) : bool :=
  match b with
  | c :: r => negb (ceq c ch_star && match r with d :: _ => ceq d ch_slash | [] => false end)
              && no_close r
  | [] => true
  end.

(* a star at the end of the body is followed by the star of the closing pair *)
Lemma idle_block : forall st rest body, no_close body = true ->
  idle (ch_slash :: st) ASilent (ch_star :: ch_slash :: rest) body.
Proof.
  intros st rest body. induction body as [|c b IH]; intro H; [constructor|].
  simpl in H. apply andb_true_iff in H. destruct H as [H1 H2].
  constructor; [|apply IH, H2].
  rewrite step_slash. unfold starts2. apply negb_true_iff in H1. destruct b as [|d b']; simpl.
  - rewrite andb_false_r. reflexivity.
  - rewrite H1. reflexivity.
Qed.

Theorem block_comment_transparent : forall st body rest,
  code_state st = true -> no_close body = true ->
  ann (Run [] st) (ch_slash :: ch_star :: body ++ ch_star :: ch_slash :: rest) =
  repeat ASilent (length body + 4) ++ ann (Run [] st) rest.
Proof.
  intros st body rest Hc Hb.
  replace (length body + 4) with (2 + length body + 2) by lia. rewrite repeat_app, <- app_assoc.
  apply (ann_open st (ch_slash :: st) ch_slash [ch_star]); [assumption|reflexivity|].
  apply idle_block, Hb.
Qed.

Lemma idle_line : forall st rest body, no_char ch_nl body = true ->
  idle (ch_hash :: st) ASilent rest body.
Proof.
  intros st rest body H. apply idle_chars. intros c Hc r.
  rewrite step_hash, (no_char_In _ _ _ H Hc). reflexivity.
Qed.

Theorem line_comment_transparent : forall st body rest,
  code_state st = true -> no_char ch_nl body = true ->
  ann (Run [] st) (ch_hash :: body ++ ch_nl :: rest) =
  repeat ASilent (S (length body)) ++ AOk st :: ann (Run [] st) rest.
Proof.
  intros st body rest Hc Hb.
  apply (ann_open st (ch_hash :: st) ch_hash []); [assumption|reflexivity|].
  apply idle_line, Hb.
Qed.

Theorem line_comment_at_eof : forall st body,
  code_state st = true -> no_char ch_nl body = true ->
  ann (Run [] st) (ch_hash :: body) = repeat ASilent (S (length body)).
Proof.
  intros st body Hc Hb.
  pose proof (ann_open st _ ch_hash [] _ body _ [] Hc eq_refl (idle_line st [] body Hb)) as E.
  simpl in E. rewrite !app_nil_r in E. exact E.
Qed.

Lemma idle_dq : forall st rest body, no_char ch_dq body = true -> no_char ch_nl body = true ->
  idle (ch_dq :: st) (AOk (ch_dq :: st)) rest body.
Proof.
  intros st rest body H1 H2. apply idle_chars. intros c Hc r.
  rewrite step_dq, (no_char_In _ _ _ H1 Hc), (no_char_In _ _ _ H2 Hc). reflexivity.
Qed.

(* the opening quote is not the start of a triple quote *)
Definition not_triple (body rest : str) : Prop :=
  body = [] -> match rest with d :: _ => ceq d ch_dq = false | [] => True end.

Lemma code_open_dq : forall st body rest, no_char ch_dq body = true -> not_triple body rest ->
  code st ch_dq (body ++ ch_dq :: rest) = yield_ (ch_dq :: st).
Proof.
  intros st body rest H1 H3. unfold code, starts3. destruct body as [|c b]; simpl.
  - destruct rest as [|d r]; [reflexivity|]. rewrite (H3 eq_refl). reflexivity.
  - rewrite (no_char_In _ _ c H1 (or_introl eq_refl)). destruct (b ++ ch_dq :: rest); reflexivity.
Qed.

Theorem string_opaque_dq : forall st body rest,
  code_state st = true -> no_char ch_dq body = true -> no_char ch_nl body = true ->
  not_triple body rest ->
  ann (Run [] st) (ch_dq :: body ++ ch_dq :: rest) =
  repeat (AOk (ch_dq :: st)) (S (length body)) ++ AOk st :: ann (Run [] st) rest.
Proof.
  intros st body rest Hc H1 H2 H3.
  apply (ann_open st (ch_dq :: st) ch_dq []); [assumption|apply code_open_dq; assumption|].
  apply idle_dq; assumption.
Qed.

Theorem string_opaque_backtick : forall st body rest,
  code_state st = true -> no_char ch_bt body = true ->
  ann (Run [] st) (ch_bt :: body ++ ch_bt :: rest) =
  repeat (AOk (ch_bt :: st)) (S (length body)) ++ AOk st :: ann (Run [] st) rest.
Proof.
  intros st body rest Hc H1.
  apply (ann_open st (ch_bt :: st) ch_bt []); [assumption|reflexivity|].
  apply idle_chars. intros c Hc' r. rewrite step_bt, (no_char_In _ _ _ H1 Hc'). reflexivity.
Qed.

Theorem string_opaque_sq : forall st body rest,
  code_state st = true -> no_char ch_sq body = true -> no_char ch_bs body = true ->
  ann (Run [] st) (ch_sq :: body ++ ch_sq :: rest) =
  repeat (AOk (ch_sq :: st)) (S (length body)) ++ AOk st :: ann (Run [] st) rest.
Proof.
  intros st body rest Hc H1 H2.
  apply (ann_open st (ch_sq :: st) ch_sq []); [assumption|reflexivity|].
  apply idle_chars. intros c Hc' r.
  rewrite step_sq, (no_char_In _ _ _ H1 Hc'), (no_char_In _ _ _ H2 Hc'). reflexivity.
Qed.

Theorem string_opaque_triple : forall st body rest,
  code_state st = true -> no_char ch_dq body = true ->
  ann (Run [] st) (ch_dq :: ch_dq :: ch_dq :: body ++ ch_dq :: ch_dq :: ch_dq :: rest) =
  repeat (AOk (ch_3 :: st)) (length body + 3) ++ repeat (AOk st) 3 ++ ann (Run [] st) rest.
Proof.
  intros st body rest Hc H1.
  replace (length body + 3) with (3 + length body) by lia.
  apply (ann_open st (ch_3 :: st) ch_dq [ch_dq; ch_dq]); [assumption|reflexivity|].
  apply idle_chars. intros c Hc' r.
  rewrite step_3. unfold starts3. rewrite (no_char_In _ _ _ H1 Hc'). reflexivity.
Qed.

(* what RemoveComments returns, as text only (without the index of an error it raises) *)
Definition vis (k : cfg) (s : str) : option str := visible s (ann k s).

Lemma visible_silent_prefix : forall p s a,
  visible (p ++ s) (repeat ASilent (length p) ++ a) = visible s a.
Proof. induction p as [|c p IH]; intros; simpl; auto. Qed.

Theorem remove_comments_block : forall st body rest,
  code_state st = true -> no_close body = true ->
  vis (Run [] st) (ch_slash :: ch_star :: body ++ ch_star :: ch_slash :: rest) = vis (Run [] st) rest.
Proof.
  intros. unfold vis. rewrite block_comment_transparent by assumption.
  replace (length body + 4) with (2 + length body + 2) by lia. rewrite repeat_app, <- app_assoc.
  exact (visible_silent_prefix body (ch_star :: ch_slash :: rest) _).
Qed.

Theorem remove_comments_line : forall st body rest,
  code_state st = true -> no_char ch_nl body = true ->
  vis (Run [] st) (ch_hash :: body ++ ch_nl :: rest) = option_map (cons ch_nl) (vis (Run [] st) rest).
Proof.
  intros. unfold vis. rewrite line_comment_transparent by assumption.
  exact (visible_silent_prefix (ch_hash :: body) (ch_nl :: rest) _).
Qed.

Lemma last_event_silent_prefix : forall n a acc,
  last_event (repeat ASilent n ++ a) acc = last_event a acc.
Proof. induction n; intros; simpl; auto. Qed.

Theorem whole_ignores_block_comment : forall body rest,
  no_close body = true ->
  is_whole (ch_slash :: ch_star :: body ++ ch_star :: ch_slash :: rest) = is_whole rest.
Proof.
  intros. unfold is_whole, traverse, start, whole_of.
  rewrite block_comment_transparent by (auto; reflexivity).
  rewrite last_event_silent_prefix. reflexivity.
Qed.
