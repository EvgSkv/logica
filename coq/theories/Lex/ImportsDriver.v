(* C12 — proofs about the driver of Lex/Imports.v (parse_file / parse_main).
   A fuel-free big-step relation (Parses / Steps) is extracted from the fuelled function; all
   invariants are proved by induction on it (Steps_nested_ind). *)
From Coq Require Import List Bool Arith.
Import ListNotations.
From LV Require Import Util.ListFacts Lex.Imports Lex.ImportsProofs.

Definition keys (st : pstate) : list path := map fst st.
Definition done (st : pstate) (p : path) (pf : parsed) : Prop := lookup st p = Some (Some pf).

Lemma lookup_none : forall st p, lookup st p = None <-> ~ In p (keys st).
Proof.
  induction st as [|[q x] st IH]; intro p; simpl; [tauto|].
  destruct (path_eqbP q p) as [->|Hne].
  - split; [discriminate | intro H; destruct H; auto].
  - rewrite IH. tauto.
Qed.

Lemma lookup_In : forall st p x, lookup st p = Some x -> In (p, x) st.
Proof.
  induction st as [|[q y] st IH]; intros p x H; simpl in *; [discriminate|].
  destruct (path_eqbP q p) as [->|_]; [injection H as ->|]; auto.
Qed.

Lemma In_lookup : forall st p x, NoDup (keys st) -> In (p, x) st -> lookup st p = Some x.
Proof.
  intros st p x ND H. destruct (lookup st p) as [y|] eqn:E.
  - apply lookup_In in E. injection (NoDup_map_inj fst st ND _ _ H E eq_refl) as ->. reflexivity.
  - apply lookup_none in E. destruct E. exact (in_map fst st _ H).
Qed.

Lemma lookup_app : forall st q x p,
  lookup (st ++ [(q, x)]) p =
  match lookup st p with Some y => Some y | None => if path_eqb q p then Some x else None end.
Proof.
  induction st as [|[r y] st IH]; intros q x p; simpl.
  - destruct (path_eqb q p); reflexivity.
  - destruct (path_eqb r p); auto.
Qed.

Lemma lookup_set : forall st q pf p,
  lookup (set_done st q pf) p =
  if path_eqb q p then match lookup st p with Some _ => Some (Some pf) | None => None end
  else lookup st p.
Proof.
  induction st as [|[r y] st IH]; intros q pf p; simpl.
  - destruct (path_eqb q p); reflexivity.
  - destruct (path_eqbP r q) as [->|Hrq]; simpl; rewrite IH; destruct (path_eqbP q p) as [->|Hqp]; auto.
    destruct (path_eqbP r p); [contradiction|reflexivity].
Qed.

Lemma done_app : forall st q p pf, done (st ++ [(q, None)]) p pf <-> done st p pf.
Proof.
  intros st q p pf. unfold done. rewrite lookup_app.
  destruct (lookup st p); [tauto|]. destruct (path_eqb q p); split; discriminate.
Qed.

Lemma done_set : forall st q pf p pf', lookup st q = Some None ->
  (done (set_done st q pf) p pf' <-> (p = q /\ pf' = pf) \/ (p <> q /\ done st p pf')).
Proof.
  intros st q pf p pf' Hq. unfold done. rewrite lookup_set.
  destruct (path_eqbP q p) as [<-|Hne]; [rewrite Hq|]; intuition congruence.
Qed.

Lemma keys_set : forall st q pf, keys (set_done st q pf) = keys st.
Proof.
  intros. unfold keys, set_done. rewrite map_map. apply map_ext. intros [r y]. simpl.
  destruct (path_eqb r q); reflexivity.
Qed.

Lemma keys_app : forall st q x, keys (st ++ [(q, x)]) = keys st ++ [q].
Proof. intros. unfold keys. rewrite map_app. reflexivity. Qed.

Lemma prefixes_done : forall st p pf, done st p pf -> In (pf_prefix pf) (prefixes st).
Proof.
  intros st p pf H. apply lookup_In in H. unfold prefixes. apply in_flat_map.
  exists (p, Some pf). split. assumption. simpl. left. reflexivity.
Qed.

Section DriverProofs.
  Variable m : mode.
  Variable fs : path -> option file.

  Definition final (st1 : pstate) (this : path) (f : file) (pf : parsed) : Prop :=
    if is_main this then
      pf_prefix pf = [] /\ apply_imports m st1 (f_imports f) (f_rules f) = Ok (pf_rules pf)
    else
      file_prefix m (prefixes st1) this = Some (pf_prefix pf) /\
      apply_imports m st1 (f_imports f)
        (apply_renames (own_renames (pf_prefix pf) (f_rules f)) (f_rules f)) = Ok (pf_rules pf).

  Inductive Parses : pstate -> path -> file -> pstate -> parsed -> Prop :=
    | P_intro : forall st this f st1 pf,
        Steps st (f_imports f) st1 -> final st1 this f pf -> Parses st this f st1 pf
  with Steps : pstate -> list import -> pstate -> Prop :=
    | S_nil : forall st, Steps st [] st
    | S_skip : forall st i t st1 pf0,
        lookup st (i_file i) = Some (Some pf0) -> Steps st t st1 -> Steps st (i :: t) st1
    | S_parse : forall st i t g st' pf st1,
        lookup st (i_file i) = None -> fs (i_file i) = Some g -> is_main (i_file i) = false ->
        Parses (st ++ [(i_file i, None)]) (i_file i) g st' pf ->
        Steps (set_done st' (i_file i) pf) t st1 -> Steps st (i :: t) st1.

  Scheme Parses_mind := Minimality for Parses Sort Prop
    with Steps_mind := Minimality for Steps Sort Prop.

  Lemma Parses_inv : forall st this f st1 pf,
    Parses st this f st1 pf -> Steps st (f_imports f) st1 /\ final st1 this f pf.
  Proof. intros st this f st1 pf []. auto. Qed.

  (* Parses has one constructor, so the mutual induction is an induction on Steps alone: what is shown
     of a file being parsed is P of its own import statements. *)
  Lemma Steps_nested_ind (P : pstate -> list import -> pstate -> Prop) :
    (forall st, P st [] st) ->
    (forall st i t st1 pf0,
       lookup st (i_file i) = Some (Some pf0) -> Steps st t st1 -> P st t st1 -> P st (i :: t) st1) ->
    (forall st i t g st' pf st1,
       lookup st (i_file i) = None -> fs (i_file i) = Some g -> is_main (i_file i) = false ->
       Parses (st ++ [(i_file i, None)]) (i_file i) g st' pf -> P (st ++ [(i_file i, None)]) (f_imports g) st' ->
       Steps (set_done st' (i_file i) pf) t st1 -> P (set_done st' (i_file i) pf) t st1 ->
       P st (i :: t) st1) ->
    forall st imps st1, Steps st imps st1 -> P st imps st1.
  Proof. exact (Steps_mind (fun st _ f st1 _ => P st (f_imports f) st1) P (fun _ _ _ _ _ _ IH _ => IH)). Qed.

  Lemma fold_steps : forall rec,
    (forall st this f st' pf, rec st this f = Ok (st', pf) -> Parses st this f st' pf) ->
    forall imps st st1, fold_left (do_import fs rec) imps (Ok st) = Ok st1 -> Steps st imps st1.
  Proof.
    intros rec Hrec. induction imps as [|i t IH]; intros st st1 H; cbn [fold_left] in H.
    - injection H as <-. constructor.
    - destruct (do_import fs rec (Ok st) i) as [st2|e] eqn:Ed; [|rewrite fold_left_stays in H by reflexivity; discriminate].
      apply IH in H. unfold do_import in Ed.
      destruct (lookup st (i_file i)) as [[pf0|]|] eqn:El; try discriminate.
      + injection Ed as <-. eapply S_skip; eauto.
      + destruct (fs (i_file i)) as [g|] eqn:Ef; try discriminate.
        destruct (is_main (i_file i)) eqn:Em; try discriminate.
        destruct (rec (st ++ [(i_file i, None)]) (i_file i) g) as [[st' pf]|e] eqn:Er; try discriminate.
        injection Ed as <-. eapply S_parse; eauto.
  Qed.

  Lemma parse_file_parses : forall fuel st this f st1 pf,
    parse_file m fs fuel st this f = Ok (st1, pf) -> Parses st this f st1 pf.
  Proof.
    induction fuel as [|k IH]; intros st this f st1 pf H; [discriminate|]. cbn [parse_file] in H. unfold body in H.
    destruct (fold_left (do_import fs (parse_file m fs k)) (f_imports f) (Ok st)) as [st2|e] eqn:Ef; try discriminate.
    apply (fold_steps _ IH) in Ef.
    assert (st2 = st1 /\ final st1 this f pf) as [<- Hfin]; [|constructor; assumption].
    unfold final. destruct (is_main this).
    - destruct (apply_imports m st2 (f_imports f) (f_rules f)) as [rs|e] eqn:Ea; try discriminate.
      injection H as <- <-. auto.
    - destruct (file_prefix m (prefixes st2) this) as [pre|] eqn:Ep; try discriminate.
      destruct (apply_imports m st2 (f_imports f) (apply_renames (own_renames pre (f_rules f)) (f_rules f)))
        as [rs|e] eqn:Ea; try discriminate.
      injection H as <- <-. auto.
  Qed.

  (* what a completed call leaves of st: every entry keeps its value, and whatever was added is finished *)
  Definition Ext (st st' : pstate) : Prop := forall p,
    match lookup st p with
    | Some None => lookup st' p = Some None
    | Some (Some pf) => lookup st' p = Some (Some pf)
    | None => lookup st' p <> Some None
    end.

  Lemma Ext_refl : forall st, Ext st st.
  Proof. intros st p. destruct (lookup st p) as [[pf|]|]; auto. discriminate. Qed.

  Lemma Ext_step : forall st q st' pf st1,
    lookup st q = None -> Ext (st ++ [(q, None)]) st' -> Ext (set_done st' q pf) st1 -> Ext st st1.
  Proof.
    intros st q st' pf st1 Hq E1 E2 p.
    specialize (E1 p). specialize (E2 p). rewrite lookup_app in E1. rewrite lookup_set in E2.
    destruct (path_eqbP q p) as [->|_].
    - rewrite Hq in *. rewrite E1 in E2. rewrite E2. discriminate.
    - destruct (lookup st p) as [[pf0|]|].
      + rewrite E1 in E2. assumption.
      + rewrite E1 in E2. assumption.
      + destruct (lookup st' p) as [[pf0|]|].
        * rewrite E2. discriminate.
        * exfalso. apply E1. reflexivity.
        * assumption.
  Qed.

  Lemma grow : forall st imps st1, Steps st imps st1 -> Ext st st1.
  Proof.
    apply Steps_nested_ind.
    - exact Ext_refl.
    - intros st i t st1 pf0 _ _ IH. exact IH.
    - intros st i t g st' pf st1 Hl _ _ _ IHP _ IHS. exact (Ext_step _ _ _ _ _ Hl IHP IHS).
  Qed.

  (* a state that grew from the empty one has no file in progress *)
  Lemma settled : forall st, NoDup (keys st) -> Ext [] st ->
    forall p x, In (p, x) st -> exists pf, x = Some pf /\ done st p pf.
  Proof.
    intros st Hn E p x Hin. apply In_lookup in Hin; [|assumption]. destruct x as [pf|].
    - exists pf. auto.
    - destruct (E p Hin).
  Qed.

  Definition imports_done (st : pstate) (f : file) : Prop :=
    forall i, In i (f_imports f) -> exists pfi, done st (i_file i) pfi.

  Definition entry_ok (st : pstate) (p : path) (pf : parsed) : Prop :=
    exists f, fs p = Some f /\ imports_done st f /\ is_main p = false /\
      pf_rules pf = apply_renames (file_renames st (pf_prefix pf) false f) (f_rules f).

  Record Inv (st : pstate) : Prop := mkInv {
    inv_nodup : NoDup (keys st);
    inv_entry : forall p pf, done st p pf -> entry_ok st p pf;
    inv_uniq : forall p1 p2 pf1 pf2,
      done st p1 pf1 -> done st p2 pf2 -> pf_prefix pf1 = pf_prefix pf2 -> p1 = p2;
    inv_acyc : forall p pf, done st p pf -> ~ reach fs p p
  }.

  Definition DoneMono (st st' : pstate) : Prop := forall q pf, done st q pf -> done st' q pf.

  Lemma Ext_DoneMono : forall st st', Ext st st' -> DoneMono st st'.
  Proof. intros st st' E q pf H. specialize (E q). unfold done in *. rewrite H in E. assumption. Qed.

  Lemma file_renames_mono : forall st st' pre b f,
    imports_done st f -> DoneMono st st' -> file_renames st' pre b f = file_renames st pre b f.
  Proof.
    intros st st' pre b f Hd Hm. unfold file_renames, import_renames. f_equal. apply map_ext_in. intros i Hi.
    destruct (Hd i Hi) as [pfi Hpfi]. rewrite (Hm _ _ Hpfi). unfold done in Hpfi. rewrite Hpfi. reflexivity.
  Qed.

  Lemma imports_done_mono : forall st st' f, imports_done st f -> DoneMono st st' -> imports_done st' f.
  Proof. intros st st' f H Hm i Hi. destruct (H i Hi) as [pfi Hp]. exists pfi. apply Hm. assumption. Qed.

  Lemma entry_ok_mono : forall st st' p pf, entry_ok st p pf -> DoneMono st st' -> entry_ok st' p pf.
  Proof.
    intros st st' p pf [f [Hf [Hd [Hm Hr]]]] Hmono. exists f. repeat split; auto.
    - eapply imports_done_mono; eauto.
    - rewrite (file_renames_mono st st'); auto.
  Qed.

  Lemma edge_done : forall st p g q,
    fs p = Some g -> imports_done st g -> edge fs p q -> exists pfq, done st q pfq.
  Proof. intros st p g q Hf Hd [f [i [Hf' [Hi <-]]]]. rewrite Hf in Hf'. injection Hf' as <-. auto. Qed.

  (* whatever can be reached from a file whose import statements are done is done; the file itself
     need not be: this is the file being completed in Inv_set *)
  Lemma reach_done : forall st, (forall p pf, done st p pf -> entry_ok st p pf) ->
    forall q r, reach fs q r -> forall g, fs q = Some g -> imports_done st g -> exists pfr, done st r pfr.
  Proof.
    intros st He q r Hr. induction Hr as [q r Hedge|q q' r Hedge _ IH]; intros g Hf Hd;
      destruct (edge_done _ _ _ _ Hf Hd Hedge) as [pf Hq].
    - eauto.
    - destruct (He _ _ Hq) as [g' [Hf' [Hd' _]]]. eauto.
  Qed.

  Lemma closure : forall st, (forall p pf, done st p pf -> entry_ok st p pf) ->
    forall p q, reach fs p q -> forall pf, done st p pf -> exists pfq, done st q pfq.
  Proof.
    intros st He p q Hr pf Hd. destruct (He p pf Hd) as [f [Hf [Hdone _]]]. eapply reach_done; eauto.
  Qed.

  Lemma apply_imports_checks : forall st imps rs rs',
    apply_imports m st imps rs = Ok rs' ->
    forall k i, nth_error imps k = Some i ->
    exists pf, done st (i_file i) pf /\
      (In (pf_prefix pf ++ i_pred i) (defined (pf_rules pf) ++ made (pf_rules pf)) \/
       (m = Cpp /\ In (i_pred i) (defined (pf_rules pf) ++ made (pf_rules pf)))) /\
      count_all (imported_as i) (apply_renames (import_renames st (firstn k imps)) rs) <> 0.
  Proof.
    intros st. induction imps as [|j t IH]; intros rs rs' H k i Hk.
    - destruct k; discriminate.
    - simpl in H. destruct (lookup st (i_file j)) as [[pf|]|] eqn:El; try discriminate.
      destruct (negb _) eqn:En; try discriminate.
      destruct (Nat.eqb _ 0) eqn:Ec; try discriminate.
      destruct k as [|k]; simpl in Hk.
      + injection Hk as ->. exists pf. split. assumption. split.
        * apply negb_false_iff in En. apply orb_true_iff in En. destruct En as [En|En].
          -- left. apply mem_In. assumption.
          -- right. destruct m; try discriminate. split. reflexivity. apply mem_In. assumption.
        * simpl. apply Nat.eqb_neq in Ec. assumption.
      + cbn [firstn import_renames map apply_renames]. rewrite El. exact (IH _ _ H k i Hk).
  Qed.

  Lemma apply_imports_done : forall st imps rs rs',
    apply_imports m st imps rs = Ok rs' -> forall i, In i imps -> exists pfi, done st (i_file i) pfi.
  Proof.
    intros st imps rs rs' H i Hi. apply In_nth_error in Hi. destruct Hi as [k Hk].
    destruct (apply_imports_checks _ _ _ _ H k i Hk) as [pf [Hd _]]. eauto.
  Qed.

  Lemma apply_imports_renames : forall st imps rs rs',
    apply_imports m st imps rs = Ok rs' -> rs' = apply_renames (import_renames st imps) rs.
  Proof.
    intros st. induction imps as [|i t IH]; intros rs rs' H; simpl in *.
    - inversion H. reflexivity.
    - destruct (lookup st (i_file i)) as [[pf|]|] eqn:El; try discriminate.
      destruct (negb _); try discriminate. destruct (Nat.eqb _ 0); try discriminate.
      apply IH in H. assumption.
  Qed.

  Lemma Inv_nil : Inv [].
  Proof.
    constructor; simpl.
    - constructor.
    - intros p pf H. discriminate.
    - intros ? ? ? ? H. discriminate.
    - intros p pf H. discriminate.
  Qed.

  Lemma Inv_app : forall st q, Inv st -> lookup st q = None -> Inv (st ++ [(q, None)]).
  Proof.
    intros st q [Hn He Hu Ha] Hq.
    assert (Hm : DoneMono st (st ++ [(q, None)])) by (intros p pf H; apply done_app; assumption).
    constructor.
    - rewrite keys_app. apply (NoDup_Add (Add_app q (keys st) [])). rewrite app_nil_r.
      split; [assumption | apply lookup_none; assumption].
    - intros p pf H. apply done_app in H. eapply entry_ok_mono; eauto.
    - intros p1 p2 pf1 pf2 H1 H2. apply done_app in H1. apply done_app in H2. eauto.
    - intros p pf H. apply done_app in H. eauto.
  Qed.

  Definition post (st1 : pstate) (this : path) (f : file) (pf : parsed) : Prop :=
    imports_done st1 f /\
    pf_rules pf = apply_renames (file_renames st1 (pf_prefix pf) (is_main this) f) (f_rules f) /\
    (is_main this = false -> forall q pfq, done st1 q pfq -> pf_prefix pfq <> pf_prefix pf) /\
    (is_main this = true -> pf_prefix pf = []).

  Lemma final_post : forall st1 this f pf, final st1 this f pf -> post st1 this f pf.
  Proof.
    intros st1 this f pf H. unfold final in H. unfold post, file_renames.
    destruct (is_main this); destruct H as [Hp Ha];
      (split; [exact (apply_imports_done _ _ _ _ Ha) | rewrite (apply_imports_renames _ _ _ _ Ha)]).
    - repeat split; [discriminate | auto].
    - rewrite apply_renames_app. repeat split; [|discriminate].
      intros _ q pfq Hd E. apply (file_prefix_fresh _ _ _ _ Hp). rewrite <- E. eapply prefixes_done; eauto.
  Qed.

  Lemma Inv_set : forall st q g pf, Inv st -> lookup st q = Some None ->
    fs q = Some g -> is_main q = false -> post st q g pf -> Inv (set_done st q pf).
  Proof.
    intros st q g pf [Hn He Hu Ha] Hq Hf Hm [Hd [Hr [Hfresh _]]].
    assert (Hmono : DoneMono st (set_done st q pf)).
    { intros p pf' H. apply done_set; auto. right. split; auto. intros ->. unfold done in H. congruence. }
    constructor.
    - rewrite keys_set. assumption.
    - intros p pf' H. apply entry_ok_mono with st; [|assumption].
      apply done_set in H; auto. destruct H as [[-> ->]|[_ H]]; [|auto].
      exists g. rewrite Hm in Hr. auto.
    - intros p1 p2 pf1 pf2 H1 H2 Epre. apply done_set in H1; auto. apply done_set in H2; auto.
      destruct H1 as [[-> ->]|[Hne1 H1]]; destruct H2 as [[-> ->]|[Hne2 H2]]; auto.
      + exfalso. eapply Hfresh; eauto.
      + exfalso. eapply Hfresh; eauto.
      + eauto.
    - intros p pf' H. apply done_set in H; auto. destruct H as [[-> ->]|[Hne H]].
      + intro Hr'. destruct (reach_done st He _ _ Hr' g Hf Hd) as [pfr Hpfr]. unfold done in Hpfr. congruence.
      + eauto.
  Qed.

  Lemma Steps_Inv : forall st imps st1, Steps st imps st1 -> Inv st -> Inv st1.
  Proof.
    apply (Steps_nested_ind (fun st _ st1 => Inv st -> Inv st1)).
    - intros st Hinv. exact Hinv.
    - intros st i t st1 pf0 _ _ IHS. exact IHS.
    - intros st i t g st' pf st1 Hl Hf Hm HP IHP _ IHS Hinv. apply Parses_inv in HP. destruct HP as [HS Hfin].
      apply IHS, (Inv_set st' (i_file i) g).
      + apply IHP, Inv_app; assumption.
      + (* the entry appended for this file is still in progress *)
        pose proof (grow _ _ _ HS (i_file i)) as E. rewrite lookup_app, Hl, path_eqb_refl in E. exact E.
      + exact Hf.
      + exact Hm.
      + apply final_post. exact Hfin.
  Qed.

  Lemma invariant :
    (forall st this f st1 pf, Parses st this f st1 pf -> Inv st -> Inv st1 /\ post st1 this f pf) /\
    (forall st imps st1, Steps st imps st1 -> Inv st -> Inv st1).
  Proof.
    split.
    - intros st this f st1 pf HP Hinv. apply Parses_inv in HP. destruct HP as [HS Hfin].
      split. eapply Steps_Inv; eassumption. apply final_post. assumption.
    - exact Steps_Inv.
  Qed.

  Lemma from_imports_tl : forall i t q, from_imports fs t q -> from_imports fs (i :: t) q.
  Proof. intros i t q [j [Hj H]]. exists j. split; [right|]; assumption. Qed.

  Lemma from_imports_reach : forall p g q,
    fs p = Some g -> from_imports fs (f_imports g) q -> reach fs p q.
  Proof.
    intros p g q Hf [j [Hj H]]. assert (Hedge : edge fs p (i_file j)) by (exists g, j; auto).
    destruct H as [<-|H]. apply reach1; assumption. eapply reachS; eassumption.
  Qed.

  Lemma only_reachable : forall st imps st1, Steps st imps st1 ->
    forall q, In q (keys st1) -> In q (keys st) \/ from_imports fs imps q.
  Proof.
    apply (Steps_nested_ind (fun st imps st1 =>
             forall q, In q (keys st1) -> In q (keys st) \/ from_imports fs imps q)).
    - auto.
    - intros st i t st1 pf0 _ _ IH q Hq. destruct (IH q Hq); auto using from_imports_tl.
    - intros st i t g st' pf st1 Hl Hf Hm _ IHP _ IHS q Hq.
      destruct (IHS q Hq) as [H|H]; [|auto using from_imports_tl].
      rewrite keys_set in H. destruct (IHP q H) as [H1|H1].
      + rewrite keys_app in H1. apply in_app_or in H1. destruct H1 as [H1|[<-|[]]]; [auto|].
        right. exists i. simpl. auto.
      + right. exists i. split; [left; reflexivity|]. right. eapply from_imports_reach; eassumption.
  Qed.

  Lemma assemble_spec : forall es d acc R,
    assemble d es acc = Ok R ->
    R = acc ++ rules_of_state es /\
    (forall p pf n, In (p, Some pf) es -> In n (defined (pf_rules pf)) -> is_at n = false -> ~ In n d).
  Proof.
    induction es as [|[p [pf|]] es IH]; intros d acc R H; simpl in H.
    - inversion H. split. unfold rules_of_state. simpl. rewrite app_nil_r. reflexivity.
      intros ? ? ? [].
    - destruct (existsb _ (defined (pf_rules pf))) eqn:Ee; try discriminate.
      apply IH in H. destruct H as [HR Hno]. split.
      + rewrite HR. unfold rules_of_state. simpl. rewrite app_assoc. reflexivity.
      + intros p' pf' n [Hin|Hin] Hn Hat.
        * injection Hin as <- <-. intro Hd. apply not_true_iff_false in Ee. apply Ee.
          apply existsb_exists. exists n. split; auto. rewrite Hat. apply mem_In. assumption.
        * intro Hd. eapply Hno; eauto. apply in_or_app. left. assumption.
    - discriminate.
  Qed.

  Theorem main_state_facts : forall fuel mainf st pfm,
    parse_main_state m fs fuel mainf = Ok (st, pfm) ->
    NoDup (keys st) /\
    (forall p, In p (keys st) <-> from_imports fs (f_imports mainf) p) /\
    (forall p, In p (keys st) -> ~ reach fs p p) /\
    (forall p1 p2 pf1 pf2, In (p1, Some pf1) st -> In (p2, Some pf2) st ->
       pf_prefix pf1 = pf_prefix pf2 -> p1 = p2) /\
    (forall p x, In (p, x) st -> exists pf f, x = Some pf /\ fs p = Some f /\ is_main p = false /\
       pf_rules pf = apply_renames (file_renames st (pf_prefix pf) false f) (f_rules f)) /\
    pf_rules pfm = apply_renames (file_renames st [] true mainf) (f_rules mainf).
  Proof.
    intros fuel mainf st pfm H. apply parse_file_parses, Parses_inv in H. destruct H as [HS Hfin].
    destruct (proj2 invariant _ _ _ HS Inv_nil) as [Hn He Hu Ha].
    destruct (final_post _ _ _ _ Hfin) as [Hd [Hr _]].
    pose proof (settled st Hn (grow _ _ _ HS)) as Hall.
    repeat split.
    - assumption.
    - intro Hin. destruct (only_reachable _ _ _ HS p Hin) as [[]|Hf]. assumption.
    - intros [i [Hi Hq]]. destruct (Hd i Hi) as [pfi Hpfi].
      assert (exists pfq, done st p pfq) as [pfq Hpfq].
      { destruct Hq as [<-|Hq]; [eauto | eapply closure; eauto]. }
      apply (in_map fst _ _ (lookup_In _ _ _ Hpfq)).
    - intros p Hin. apply in_map_iff in Hin. destruct Hin as [[p' x] [<- Hin]].
      destruct (Hall _ _ Hin) as [pf [_ Hp]]. eauto.
    - intros p1 p2 pf1 pf2 H1 H2. apply Hu; apply In_lookup; assumption.
    - intros p x Hin. destruct (Hall _ _ Hin) as [pf [-> Hp]].
      destruct (He _ _ Hp) as [f [Hf [_ [Hm Hrules]]]]. exists pf, f. auto.
    - exact Hr.
  Qed.

  Theorem main_result : forall fuel mainf R,
    parse_main m fs fuel mainf = Ok R ->
    exists st pfm, parse_main_state m fs fuel mainf = Ok (st, pfm) /\
      R = pf_rules pfm ++ rules_of_state st /\
      (forall p pf n, In (p, Some pf) st -> In n (defined (pf_rules pf)) -> is_at n = false ->
         ~ In n (defined (pf_rules pfm))).
  Proof.
    intros fuel mainf R H. unfold parse_main in H. unfold parse_main_state.
    destruct (parse_file m fs fuel [] main_path mainf) as [[st pfm]|e] eqn:Ep; try discriminate.
    apply assemble_spec in H. destruct H as [HR Hno]. exists st, pfm. auto.
  Qed.

  Theorem cycle_rejected : forall fuel mainf p,
    from_imports fs (f_imports mainf) p -> reach fs p p ->
    forall R, parse_main m fs fuel mainf <> Ok R.
  Proof.
    intros fuel mainf p Hfrom Hcyc R H.
    destruct (main_result _ _ _ H) as [st [pfm [Hs _]]].
    destruct (main_state_facts _ _ _ _ Hs) as [_ [Hreach [Hac _]]].
    apply (Hac p). apply Hreach. assumption. assumption.
  Qed.

  (* the flattened program: every file's rules under ONE simultaneous substitution per file *)
  Definition flat_spec (st : pstate) (mainf : file) : list rule :=
    map (subst_rule (first_match (file_renames st [] true mainf))) (f_rules mainf) ++
    flat_map (fun e => match snd e, fs (fst e) with
                       | Some pf, Some f =>
                           map (subst_rule (first_match (file_renames st (pf_prefix pf) false f))) (f_rules f)
                       | _, _ => []
                       end) st.

  Definition capture_free (st : pstate) (mainf : file) : Prop :=
    nocap (file_renames st [] true mainf) = true /\
    forall p pf f, In (p, Some pf) st -> fs p = Some f ->
      nocap (file_renames st (pf_prefix pf) false f) = true.

  Theorem flatten_equiv : forall fuel mainf R,
    parse_main m fs fuel mainf = Ok R ->
    exists st pfm, parse_main_state m fs fuel mainf = Ok (st, pfm) /\
      (capture_free st mainf -> R = flat_spec st mainf).
  Proof.
    intros fuel mainf R H. destruct (main_result _ _ _ H) as [st [pfm [Hs [HR _]]]].
    exists st, pfm. split. assumption. intros [Hc1 Hc2].
    destruct (main_state_facts _ _ _ _ Hs) as [_ [_ [_ [_ [Hent Hmain]]]]].
    rewrite HR, Hmain. unfold flat_spec. f_equal.
    - apply apply_renames_simultaneous. assumption.
    - unfold rules_of_state. rewrite !flat_map_concat_map. f_equal. apply map_ext_in. intros [p x] Hin.
      destruct (Hent p x Hin) as [pf [f [-> [Hf [_ Hr]]]]]. simpl.
      rewrite Hf, Hr. apply apply_renames_simultaneous. eapply Hc2; eassumption.
  Qed.
End DriverProofs.
