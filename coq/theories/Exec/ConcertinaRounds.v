(* Exec/ConcertinaRounds.v — iteration blocks.  SortActions as a transition system whose moves place an action
   outside every iteration or a whole block; one invariant gives permutation and contiguity (blocks in declared
   order), and with iter_closedb the topological order, which fails without it (sort_topological_refuted).
   Run executes a block round by round (run_rounds). *)
From Coq Require Import List Bool Arith Lia Permutation.
Import ListNotations.
From LV Require Import Util.ListFacts Exec.Concertina Exec.ConcertinaProofs.

Section Seg.
  Variable its : list iteration.
  Variable present : name -> bool.

  Definition block (it : iteration) : list name := filter present (i_members it).

  (* a queue made of non-iterated actions and whole blocks *)
  Inductive segmented : list name -> Prop :=
  | seg_nil : segmented []
  | seg_single : forall a l, iter_of its a = None -> segmented l -> segmented (a :: l)
  | seg_block : forall it l, In it its -> segmented l -> segmented (block it ++ l).

  Lemma segmented_app : forall l1 l2, segmented l1 -> segmented l2 -> segmented (l1 ++ l2).
  Proof.
    intros l1 l2 H1 H2. induction H1; simpl; auto.
    - constructor; auto.
    - rewrite <- app_assoc. constructor; auto.
  Qed.

  Lemma segmented_In : forall l, segmented l -> forall x, In x l ->
    iter_of its x = None \/ exists it, In it its /\ In x (block it) /\ incl (block it) l.
  Proof.
    induction 1 as [|a l Ha _ IH|it l Hit _ IH]; intros x Hx.
    - contradiction.
    - destruct Hx as [<-|Hx]; [left; exact Ha|].
      destruct (IH x Hx) as [E|[jt [Hj [Hb Hi]]]]; [left; exact E|]. right. exists jt. auto using incl_tl.
    - apply in_app_iff in Hx. destruct Hx as [Hx|Hx]; [right; exists it; auto using incl_appl, incl_refl|].
      destruct (IH x Hx) as [E|[jt [Hj [Hb Hi]]]]; [left; exact E|]. right. exists jt. auto using incl_appr.
  Qed.
End Seg.

Section Sort.
  Variable cfg : list action.
  Variable its : list iteration.
  Notation seg := (segmented its (is_action cfg)).

  Definition sstate := (list name * list name)%type.   (* to assign, result *)

  Definition elig_of (it : iteration) (todo : list name) := filter (fun m => mem m todo) (i_members it).

  (* One pass of the `for` body places an action outside every iteration, or the first member of an iteration;
     in the second case the next round of the `while` appends the members still to assign, in declared order.
     The two rounds are one move here, so that no state has a block half placed. *)
  Inductive move : sstate -> sstate -> Prop :=
  | mv_single : forall todo result a,
      In a todo -> iter_of its a = None ->
      (forall r, In r (requires cfg its a) -> In r result) ->
      move (todo, result) (remove_one a todo, result ++ [a])
  | mv_block : forall todo result a it,
      In a todo -> iter_of its a = Some it -> is_ataman its a = true ->
      (forall r, In r (requires cfg its a) -> In r result) ->
      move (todo, result)
           (remove_all (elig_of it (remove_one a todo)) (remove_one a todo),
            (result ++ [a]) ++ elig_of it (remove_one a todo)).

  Inductive moves : sstate -> sstate -> Prop :=
  | ms_refl : forall s, moves s s
  | ms_step : forall s1 s2 s3, move s1 s2 -> moves s2 s3 -> moves s1 s3.

  Lemma moves_trans : forall s1 s2 s3, moves s1 s2 -> moves s2 s3 -> moves s1 s3.
  Proof. induction 1; auto. intros. econstructor; eauto. Qed.

  Lemma moves_inv : forall (P : sstate -> Prop),
    (forall s s', P s -> move s s' -> P s') -> forall s s', moves s s' -> P s -> P s'.
  Proof. intros P H s s' M. induction M; eauto. Qed.

  (* assigning_iteration is not part of the state: while it is set, the loop stands in the middle of a block
     move, and what it will do next is determined; [settled] is where that move ends *)
  Definition settled (ai : option iteration) (todo result : list name) : sstate :=
    match ai with
    | None => (todo, result)
    | Some it => (remove_all (elig_of it todo) todo, result ++ elig_of it todo)
    end.

  Lemma elig_nil : forall it todo, existsb (fun m => mem m todo) (i_members it) = false -> elig_of it todo = [].
  Proof.
    intros it todo. unfold elig_of. induction (i_members it) as [|m ms IH]; simpl; auto.
    destruct (mem m todo); simpl; [discriminate | exact IH].
  Qed.

  Lemma ataman_head : forall a it, iter_of its a = Some it -> is_ataman its a = true ->
    exists rest, i_members it = a :: rest.
  Proof.
    unfold is_ataman. intros a it ->. destruct (i_members it) as [|m rest]; [discriminate|].
    intros E. apply Nat.eqb_eq in E. subst m. eauto.
  Qed.

  Lemma pass_moves : forall elig complete todo result,
    Permutation complete result ->
    (forall x, In x elig -> In x todo /\ is_ataman its x = true) -> NoDup elig -> NoDup todo ->
    let '(c', t', r', ai') := pass cfg its elig complete todo result in
    moves (todo, result) (settled ai' t' r') /\ Permutation c' r' /\ NoDup t'.
  Proof.
    induction elig as [|a rest IH]; simpl; intros complete todo result Hc He Hnd Hnt.
    - split; [constructor | split; auto].
    - apply NoDup_cons_iff in Hnd. destruct Hnd as [Hna Hnd].
      destruct (subset (requires cfg its a) complete) eqn:Hs; [|apply IH; auto].
      assert (Hreq : forall r, In r (requires cfg its a) -> In r result).
      { intros r Hr. apply (Permutation_in r Hc). rewrite subset_spec in Hs. auto. }
      assert (Hc' : Permutation (a :: complete) (result ++ [a])).
      { apply Permutation_trans with (a :: result); [constructor; exact Hc | apply Permutation_cons_append]. }
      destruct (He a (or_introl eq_refl)) as [Hat Hata].
      destruct (iter_of its a) as [it|] eqn:Hit.
      + split; [|split; [exact Hc' | apply NoDup_filter; exact Hnt]].
        eapply ms_step; [apply (mv_block todo result a it Hat Hit Hata Hreq)|].
        destruct (existsb _ _) eqn:Ex; simpl; [constructor|].
        (* no other member is to assign: the block is a alone, and assigning_iteration is reset at once *)
        rewrite (elig_nil _ _ Ex), remove_all_nil, app_nil_r. constructor.
      + assert (He' : forall x, In x rest -> In x (remove_one a todo) /\ is_ataman its x = true).
        { intros x Hx. destruct (He x (or_intror Hx)) as [Hx1 Hx2]. split; [|exact Hx2].
          apply In_remove_one. split; [exact Hx1|]. intros ->. contradiction. }
        specialize (IH (a :: complete) (remove_one a todo) (result ++ [a]) Hc' He' Hnd (NoDup_filter _ Hnt)).
        destruct (pass cfg its rest _ _ _) as [[[c' t'] r'] ai']. destruct IH as [M CN].
        split; [|exact CN]. eapply ms_step; [apply (mv_single todo result a Hat Hit Hreq) | exact M].
  Qed.

  Lemma sort_loop_moves : forall fuel ai complete todo result l,
    Permutation complete result -> NoDup todo ->
    sort_loop cfg its fuel ai complete todo result = Ok l ->
    moves (settled ai todo result) ([], l).
  Proof.
    induction fuel as [|f IH]; simpl; intros ai complete todo result l Hc Hnd H; [discriminate|].
    destruct todo as [|t0 todo'].
    - injection H as <-. destruct ai as [it|]; simpl; [|constructor].
      replace (elig_of it []) with (@nil name); [rewrite app_nil_r; constructor|].
      symmetry. apply filter_nil_iff. reflexivity.
    - remember (t0 :: todo') as todo. destruct ai as [it|].
      + apply IH in H; [exact H | | apply NoDup_filter; auto].
        apply Permutation_trans with (elig_of it todo ++ result); [apply Permutation_app_head, Hc | apply Permutation_app_comm].
      + pose proof (pass_moves (filter (is_ataman its) todo) complete todo result Hc
                      (fun x => proj1 (filter_In _ x todo)) (NoDup_filter _ Hnd) Hnd) as Hp.
        destruct (pass cfg its _ complete todo result) as [[[c' t'] r'] ai']. destruct Hp as [M [C N]].
        destruct (length t' =? length todo); [discriminate|].
        apply (IH _ _ _ _ _ C N) in H. exact (moves_trans _ _ _ M H).
  Qed.

  (* result and todo partition the actions; the result is made of whole blocks *)
  Definition inv (s : sstate) : Prop :=
    let (todo, result) := s in Permutation (result ++ todo) (names cfg) /\ seg result.

  Lemma inv_init : inv (sort_names (names cfg), []).
  Proof. split; [apply sort_names_perm | constructor]. Qed.

  Section WellFormed.
  Hypothesis W : wfb cfg its = true.

  Lemma inv_parts : forall todo result, Permutation (result ++ todo) (names cfg) ->
    NoDup todo /\ (forall x, In x result -> ~ In x todo) /\ (forall x, In x (names cfg) <-> In x result \/ In x todo).
  Proof.
    intros todo result P. rewrite <- and_assoc. split.
    - apply Permutation_sym, Permutation_NoDup in P; [|apply (wfb_names cfg its W)].
      apply NoDup_app_inv in P. tauto.
    - intros x. rewrite <- in_app_iff. split; apply Permutation_in; auto using Permutation_sym.
  Qed.

  Lemma ataman_block : forall todo result a it, inv (todo, result) ->
    In a todo -> iter_of its a = Some it -> is_ataman its a = true ->
    a :: elig_of it (remove_one a todo) = block (is_action cfg) it.
  Proof.
    intros todo result a it [P S] Ha Hit Hata. destruct (inv_parts _ _ P) as [_ [D Cov]].
    destruct (iter_of_Some its a it Hit) as [Iit Ma]. destruct (ataman_head a it Hit Hata) as [rest Em].
    assert (Nm : NoDup (a :: rest)) by (rewrite <- Em; apply (wfb_members_nodup cfg its W); exact Iit).
    inversion Nm as [|? ? Nar _]; subst.
    assert (Aa : is_action cfg a = true) by (apply mem_In, Cov; auto).
    unfold block, elig_of. rewrite Em. simpl. rewrite Aa.
    replace (mem a (remove_one a todo)) with false by (symmetry; apply mem_false; rewrite In_remove_one; tauto).
    (* another member is to assign iff it is an action, that is, iff it is not in the result *)
    f_equal. apply filter_ext_in. intros m Hm. apply eq_true_iff_eq. unfold is_action.
    rewrite !mem_In, In_remove_one, Cov. split; [tauto|]. intros [Hr|Ht].
    - (* in the result it would have brought its whole block, with a, which is still to assign *)
      assert (Mm : In m (i_members it)) by (rewrite Em; right; exact Hm).
      destruct (segmented_In _ _ _ S m Hr) as [E|[jt [Hj [Hb Hi]]]]; [elim (iter_of_None its m E it Iit Mm)|].
      apply filter_In in Hb. replace jt with it in Hi by (eapply (wfb_members_disjoint cfg its W); eauto; tauto).
      elim (D a); [apply Hi, filter_In; auto | exact Ha].
    - split; [exact Ht | intros ->; contradiction].
  Qed.

  Lemma inv_move : forall s s', inv s -> move s s' -> inv s'.
  Proof.
    intros s s' I M. destruct M as [todo result a Ha Hit Hreq | todo result a it Ha Hit Hata Hreq].
    - destruct I as [P S]. destruct (inv_parts _ _ P) as [Nt _]. split.
      + rewrite <- app_assoc. simpl. rewrite remove_one_perm; auto.
      + apply segmented_app; auto. constructor; auto. constructor.
    - pose proof (ataman_block _ _ _ _ I Ha Hit Hata) as Eb.
      destruct I as [P S]. destruct (inv_parts _ _ P) as [Nt _].
      destruct (iter_of_Some its a it Hit) as [Iit _]. split.
      + rewrite <- !app_assoc. simpl. rewrite remove_all_perm.
        * rewrite remove_one_perm; auto.
        * apply NoDup_filter; auto.
        * apply NoDup_filter. apply (wfb_members_nodup cfg its W). exact Iit.
        * intros x Hx. apply filter_In in Hx. apply mem_In, Hx.
      + rewrite <- app_assoc. simpl. rewrite Eb, <- (app_nil_r (block _ it)).
        apply segmented_app; auto. constructor; auto. constructor.
  Qed.

  Lemma sorted_moves : forall l, sort_actions cfg its = Ok l -> moves (sort_names (names cfg), []) ([], l).
  Proof.
    unfold sort_actions. intros l H. destruct (understand_ok its); [|discriminate].
    apply (sort_loop_moves _ None _ _ _ _ (perm_nil _)) in H; auto.
    eapply Permutation_NoDup; [apply Permutation_sym, sort_names_perm | apply (wfb_names cfg its W)].
  Qed.

  Lemma iter_closed_spec : iter_closedb cfg its = true ->
    forall it m0 rest, In it its -> i_members it = m0 :: rest ->
    forall m, In m (i_members it) -> In m (names cfg) ->
    forall r, In r (own_requires cfg m) ->
      In r (requires cfg its m0) \/ (In r (before m (i_members it)) /\ In r (names cfg)).
  Proof.
    unfold iter_closedb. intros H it m0 rest Hit E m Hm Ha r Hr.
    rewrite forallb_forall in H. specialize (H it Hit). rewrite E in H. rewrite <- E in H.
    rewrite forallb_forall in H. specialize (H m Hm).
    apply orb_true_iff in H. destruct H as [H|H].
    - apply negb_true_iff in H. unfold is_action in H. apply mem_false in H. contradiction.
    - rewrite forallb_forall in H. specialize (H r Hr). apply orb_true_iff in H. destruct H as [H|H].
      + left. apply mem_In. exact H.
      + right. apply andb_true_iff in H. destruct H as [H1 H2]. split; apply mem_In; auto.
  Qed.

  Lemma own_in_requires : forall a r, In r (own_requires cfg a) -> In r (requires cfg its a).
  Proof. intros. unfold requires. apply in_app_iff. left. assumption. Qed.

  Lemma inv_topo_move : iter_closedb cfg its = true ->
    forall s s', inv s -> topo cfg (snd s) -> move s s' -> topo cfg (snd s').
  Proof.
    intros CL s s' I T M. destruct M as [todo result a Ha Hit Hreq | todo result a it Ha Hit Hata Hreq]; simpl in *.
    - apply ordered_snoc; [exact T|]. intros r Hr. apply Hreq, own_in_requires, Hr.
    - pose proof (ataman_block _ _ _ _ I Ha Hit Hata) as Eb.
      destruct (iter_of_Some its a it Hit) as [Iit _]. destruct (ataman_head a it Hit Hata) as [rest Em].
      rewrite <- app_assoc. simpl. rewrite Eb. apply ordered_app; auto. intros e1 m e2 E r Hr.
      assert (Hm : In m (block (is_action cfg) it)) by (rewrite E; apply in_app_iff; right; left; reflexivity).
      unfold block in Hm, E. apply filter_In in Hm. destruct Hm as [Hm Hact]. apply mem_In in Hact.
      destruct (iter_closed_spec CL it a rest Iit Em m Hm Hact r Hr) as [C|[C1 C2]]; apply in_app_iff; auto.
      right. apply (filter_before _ m r _ e1 e2 E C1). apply mem_In. exact C2.
  Qed.
  End WellFormed.

  Theorem sort_perm : forall l, wfb cfg its = true -> sort_actions cfg its = Ok l ->
    Permutation l (names cfg).
  Proof.
    intros l W H. destruct (moves_inv inv (inv_move W) _ _ (sorted_moves W l H) inv_init) as [P _].
    rewrite app_nil_r in P. exact P.
  Qed.

  Theorem sort_contiguous : forall l, wfb cfg its = true -> sort_actions cfg its = Ok l -> seg l.
  Proof.
    intros l W H. apply (moves_inv inv (inv_move W) _ _ (sorted_moves W l H) inv_init).
  Qed.

  Theorem sort_topological : forall l, wfb cfg its = true -> iter_closedb cfg its = true ->
    sort_actions cfg its = Ok l -> topo cfg l.
  Proof.
    intros l W CL H.
    enough (I : inv ([], l) /\ topo cfg l) by apply I.
    apply (moves_inv (fun s => inv s /\ topo cfg (snd s))) with (s := (sort_names (names cfg), [])).
    - intros s s' [I T] Mv. split; [eapply inv_move | eapply inv_topo_move]; eauto.
    - apply sorted_moves; assumption.
    - split; [apply inv_init|]. intros l1 x l2 E. destruct l1; discriminate.
  Qed.

  (* the fuel of sort_actions is sufficient: every round of the `while` takes an action from todo or completes
     the iteration being assigned *)
  Lemma pass_length : forall elig complete todo result c' t' r' ai',
    pass cfg its elig complete todo result = (c', t', r', ai') -> length t' <= length todo.
  Proof.
    induction elig as [|a rest IH]; simpl; intros complete todo result c' t' r' ai' H.
    - injection H as _ <- _ _. auto.
    - destruct (subset _ _).
      + destruct (iter_of its a).
        * injection H as _ <- _ _. apply filter_length_le.
        * apply IH in H. etransitivity; [exact H | apply filter_length_le].
      + eapply IH; eauto.
  Qed.

  Lemma sort_loop_fuel : forall fuel ai complete todo result,
    2 * length todo + (match ai with Some _ => 1 | None => 0 end) < fuel ->
    sort_loop cfg its fuel ai complete todo result <> OutOfFuel.
  Proof.
    induction fuel as [|f IH]; intros ai complete todo result Hf; [lia|]. simpl.
    destruct todo as [|t0 todo']; [discriminate|]. remember (t0 :: todo') as todo.
    destruct ai as [it|].
    - apply IH.
      assert (H : length (remove_all (filter (fun m => mem m todo) (i_members it)) todo) <= length todo)
        by apply filter_length_le.
      unfold name in *. lia.
    - destruct (pass cfg its (filter (is_ataman its) todo) complete todo result) as [[[c' t'] r'] ai'] eqn:Hp.
      apply pass_length in Hp. destruct (length t' =? length todo) eqn:E; [discriminate|].
      apply Nat.eqb_neq in E. apply IH. unfold name in *. destruct ai'; lia.
  Qed.

  Theorem sort_terminates : sort_actions cfg its <> OutOfFuel.
  Proof.
    unfold sort_actions. destruct (understand_ok its); [|discriminate].
    apply sort_loop_fuel. unfold sort_fuel.
    pose proof (Permutation_length (sort_names_perm (names cfg))) as HL.
    unfold names in *. rewrite map_length in HL. unfold name in *. simpl. lia.
  Qed.
End Sort.

(* The statement of sort_topological is false without iter_closedb: the loop admits a whole iteration block
   after checking only its first member, so a later member's own requirement can come after it (a known finding;
   met on hand-made configurations only).  Names: A=0 B=1 C=2 Z=3, iteration [A;B] x 2,
   B requires C. *)
Definition refute_cfg : list action := [mkA 0 []; mkA 1 [2]; mkA 2 []; mkA 3 []].
Definition refute_its : list iteration := [mkI 0 [0; 1] 2 None false].

Theorem sort_topological_refuted :
  exists cfg its l, wfb cfg its = true /\ sort_actions cfg its = Ok l /\ ~ topo cfg l /\
    trace (run its (fun _ _ => false) (run_bound its l) (init l)) = [0; 1; 0; 1; 2; 3].
Proof.
  exists refute_cfg, refute_its, [0; 1; 2; 3]. repeat split; try (vm_compute; reflexivity).
  intros T. specialize (T [0] 1 [2; 3] eq_refl 2). simpl in T.
  destruct T as [E|[]]; [left; reflexivity | discriminate].
Qed.

Inductive sublist : list name -> list name -> Prop :=
| sl_nil : sublist [] []
| sl_skip : forall x l1 l2, sublist l1 l2 -> sublist l1 (x :: l2)
| sl_keep : forall x l1 l2, sublist l1 l2 -> sublist (x :: l1) (x :: l2).

Lemma sublist_In : forall l1 l2, sublist l1 l2 -> forall x, In x l1 -> In x l2.
Proof. induction 1; simpl; intros y Hy; auto. destruct Hy; auto. Qed.

(* successive rounds: every round is an order-preserving part of the previous one *)
Inductive chain : list name -> list (list name) -> Prop :=
| chain_nil : forall c, chain c []
| chain_cons : forall c c' cs, sublist c' c -> chain c' cs -> chain c (c' :: cs).

Section RunRounds.
  Variable its : list iteration.
  Variable raised : list name -> signal -> bool.
  Variable present : name -> bool.
  Notation step := (step its raised).
  Notation run := (run its raised).

  (* the part of the trace produced by one block: the block, then at most max(reps,1) - 1 further rounds *)
  Definition block_trace (it : iteration) (b t : list name) : Prop :=
    exists cs, chain b cs /\ t = b ++ concat cs /\ S (length cs) <= Nat.max (i_reps it) 1.

  Inductive plan_trace : list name -> list name -> Prop :=
  | pt_nil : plan_trace [] []
  | pt_single : forall a l t, iter_of its a = None -> plan_trace l t -> plan_trace (a :: l) (a :: t)
  | pt_block : forall it l t bt, In it its -> block_trace it (block present it) bt -> plan_trace l t ->
      plan_trace (block present it ++ l) (bt ++ t).

  (* s' is reached from s by running the actions t *)
  Inductive star : st -> list name -> st -> Prop :=
  | star_refl : forall s, star s [] s
  | star_step : forall s a q' s1 t s2, q s = a :: q' -> step s = Some s1 -> star s1 t s2 -> star s (a :: t) s2.

  Lemma star_trans : forall s1 t1 s2 t2 s3, star s1 t1 s2 -> star s2 t2 s3 -> star s1 (t1 ++ t2) s3.
  Proof. induction 1; simpl; auto. intros. econstructor; eauto. Qed.

  Lemma star_effect : forall s t s', star s t s' ->
    trace s' = trace s ++ t /\ forall x it, iter_of its x = Some it -> cnt s' x = cnt s x + count x t.
  Proof.
    induction 1 as [s|s a q' s1 t s2 Q E _ [IHt IHc]]; [split; [symmetry; apply app_nil_r | intros; simpl; lia]|].
    destruct (step_cons its raised s a q' Q) as [s1' [E' F]]. rewrite E in E'. injection E' as <-. split.
    - rewrite IHt. destruct F; simpl; rewrite <- app_assoc; reflexivity.
    - intros x it Hx. rewrite (IHc x it Hx). cbn [count]. destruct F as [Ha| |]; cbn [cnt].
      + destruct (Nat.eqb_spec a x) as [<-|_]; [congruence | lia].
      + rewrite upd_S. lia.
      + rewrite upd_S. lia.
  Qed.

  Lemma star_final : forall s t s', star s t s' -> q s' = [] -> forall fuel, mu its s <= fuel -> run fuel s = s'.
  Proof.
    induction 1 as [s|s a q' s1 t s2 _ E _ IH]; intros Q fuel F.
    - destruct fuel; simpl; auto. unfold Concertina.step. rewrite Q. reflexivity.
    - destruct (step_mu its raised s s1 E) as [M _]. destruct fuel; [lia|]. simpl. rewrite E. apply IH; auto. lia.
  Qed.

  Lemma insert_run : forall it a l1 rest, (forall x, In x l1 -> same_iter its it x = true) ->
    (forall y, In y rest -> same_iter its it y = false) ->
    insert_after_run its it a (l1 ++ rest) = l1 ++ a :: rest.
  Proof.
    induction l1 as [|x l1 IH]; simpl; intros rest H1 H2.
    - destruct rest as [|y rest]; simpl; auto. rewrite (H2 y (or_introl eq_refl)). reflexivity.
    - rewrite (H1 x (or_introl eq_refl)). f_equal. apply IH; auto.
  Qed.

  Lemma same_iter_of : forall it x, iter_of its x = Some it -> same_iter its it x = true.
  Proof. intros. unfold same_iter. rewrite H. apply Nat.eqb_refl. Qed.

  (* One round.  The queue is cur ++ nxt ++ rest: what is left of the round, the members queued again so far, and
     what follows the block; after its next run a member of cur has at most k runs left.  The round runs cur, and
     its survivors sv join nxt. *)
  Lemma round_star : forall it k cur nxt rest s,
    q s = cur ++ nxt ++ rest ->
    (forall x, In x cur -> iter_of its x = Some it) ->
    (forall x, In x cur -> i_reps it <= S (cnt s x) + k) ->
    (forall x, In x nxt -> same_iter its it x = true) -> (forall y, In y rest -> same_iter its it y = false) ->
    exists s' sv, star s cur s' /\ q s' = nxt ++ sv ++ rest /\ sublist sv cur /\ (k = 0 -> sv = []).
  Proof.
    intros it k. induction cur as [|a cur IH]; intros nxt rest s Q I C Sn R.
    - exists s, []. repeat split; auto; constructor.
    - pose proof (fun x Hx => I x (or_intror Hx)) as I'.
      assert (C' : forall x, In x cur -> i_reps it <= S (upd (cnt s) a (S (cnt s a)) x) + k).
      { intros x Hx. rewrite upd_S. specialize (C x (or_intror Hx)). lia. }
      destruct (step_cons its raised s a _ Q) as [s1 [E F]]. specialize (fun nxt => IH nxt rest s1).
      destruct F as [Hn | it' w' _ _ _ | it' Hit' Hlt _ _]; [rewrite (I a) in Hn by (left; reflexivity); discriminate | |];
        simpl in IH.
      + destruct (IH nxt eq_refl I' C' Sn R) as [s' [sv [S1 [Q' [SL Rz]]]]].
        exists s', sv. repeat split; auto; [econstructor; eauto | apply sl_skip, SL].
      + (* a is queued again, behind the members of its iteration: it joins the next round *)
        rewrite (I a) in Hit' by (left; reflexivity). injection Hit' as <-.
        assert (Sn' : forall x, In x (nxt ++ [a]) -> same_iter its it x = true).
        { intros x Hx. apply in_app_iff in Hx. destruct Hx as [Hx|[<-|[]]]; [auto | apply same_iter_of, I; left; reflexivity]. }
        assert (Q1 : insert_after_run its it a (cur ++ nxt ++ rest) = cur ++ (nxt ++ [a]) ++ rest).
        { rewrite (app_assoc cur nxt rest), insert_run, <- !app_assoc; auto.
          intros x Hx. apply in_app_iff in Hx. destruct Hx; auto using same_iter_of. }
        destruct (IH (nxt ++ [a]) Q1 I' C' Sn' R) as [s' [sv [S1 [Q' [SL Rz]]]]].
        exists s', (a :: sv). repeat split; [econstructor; eauto | | apply sl_keep, SL |].
        * rewrite Q', <- app_assoc. reflexivity.
        * intros ->. specialize (C a (or_introl eq_refl)). lia.
  Qed.

  Lemma block_star : forall it k cur rest s,
    q s = cur ++ rest -> (forall x, In x cur -> iter_of its x = Some it) ->
    (forall x, In x cur -> i_reps it <= S (cnt s x) + k) -> (forall y, In y rest -> same_iter its it y = false) ->
    exists s' cs, star s (cur ++ concat cs) s' /\ q s' = rest /\ chain cur cs /\ length cs <= k.
  Proof.
    intros it. induction k as [|k IH]; intros cur rest s Q I C R;
      destruct (round_star it _ cur [] rest s Q I C (fun x (H : In x []) => match H with end) R)
        as [s1 [sv [S1 [Q1 [SL Rz]]]]].
    - rewrite (Rz eq_refl) in Q1. exists s1, []. simpl. rewrite app_nil_r. repeat split; auto. constructor.
    - assert (I' : forall x, In x sv -> iter_of its x = Some it).
      { intros x Hx. apply I. eapply sublist_In; eauto. }
      assert (C' : forall x, In x sv -> i_reps it <= S (cnt s1 x) + k).
      { (* a survivor has run once more *)
        intros x Hx. pose proof (sublist_In _ _ SL x Hx) as Hc. specialize (C x Hc).
        rewrite (proj2 (star_effect _ _ _ S1) x it (I x Hc)). apply count_In in Hc. lia. }
      destruct (IH sv rest s1 Q1 I' C' R) as [s' [cs [S2 [Q' [Ch Len]]]]].
      exists s', (sv :: cs). repeat split; [eapply star_trans; eauto | exact Q' | constructor; auto | simpl; lia].
  Qed.

  Hypothesis ids_nodup : NoDup (map i_id its).

  Lemma same_iter_members : forall it y, In it its -> same_iter its it y = true -> In y (i_members it).
  Proof.
    unfold same_iter. intros it y Hit E. destruct (iter_of its y) as [j|] eqn:Ej; [|discriminate].
    apply Nat.eqb_eq in E. apply iter_of_Some in Ej. destruct Ej as [Hj Hy]. rewrite <- (NoDup_map_inj i_id its ids_nodup j it Hj Hit E). exact Hy.
  Qed.

  Hypothesis disjoint : members_disjoint its.

  (* whatever the counters are at the start: a higher counter only means fewer rounds *)
  Lemma plan_star : forall l, segmented its present l -> forall s,
    q s = l -> NoDup l -> exists s' t, star s t s' /\ q s' = [] /\ plan_trace l t.
  Proof.
    induction 1 as [|a l Ha Sl IH|it l Hit Sl IH]; intros s Q N.
    - exists s, []. repeat split; auto; constructor.
    - inversion N; subst.
      destruct (step_cons its raised s a l Q) as [s1 [E F]]. destruct F as [_ | ? ? Hs _ _ | ? Hs _ _ _]; try congruence.
      destruct (IH (mkSt l (cnt s) (wrench s) (trace s ++ [a])) eq_refl) as [s' [t [S1 [Q' PT]]]]; auto.
      exists s', (a :: t). repeat split; [econstructor; eauto | exact Q' | constructor; auto].
    - set (b := block present it) in *. destruct (NoDup_app_inv b l N) as [_ [Nl Dj]].
      assert (Ib : forall x, In x b -> iter_of its x = Some it).
      { intros x Hx. unfold b, block in Hx. apply filter_In in Hx. apply iter_of_unique; tauto. }
      assert (Rl : forall y, In y l -> same_iter its it y = false).
      { intros y Hy. destruct (same_iter its it y) eqn:E; auto. elim (Dj y); auto.
        apply filter_In. split; [apply same_iter_members; auto|].
        (* y is iterated, so it stands in l inside a block *)
        destruct (segmented_In _ _ _ Sl y Hy) as [En|[jt [_ [Hb _]]]]; [unfold same_iter in E; rewrite En in E; discriminate|].
        apply filter_In in Hb. apply Hb. }
      assert (C : forall x, In x b -> i_reps it <= S (cnt s x) + (i_reps it - 1)) by (intros x _; lia).
      destruct (block_star it (i_reps it - 1) b l s Q Ib C Rl) as [s1 [cs [S1 [Q1 [Ch Len]]]]].
      destruct (IH s1 Q1 Nl) as [s' [t [S2 [Q' PT]]]].
      exists s', ((b ++ concat cs) ++ t). repeat split; [eapply star_trans; eauto | exact Q'|].
      constructor; auto. exists cs. repeat split; auto. lia.
  Qed.

  Theorem run_rounds : forall l fuel, segmented its present l -> NoDup l -> (forall x, In x l -> present x = true) ->
    run_bound its l <= fuel -> plan_trace l (trace (run fuel (init l))).
  Proof.
    intros l fuel Sg N _ F. destruct (plan_star l Sg (init l)) as [s' [t [S1 [Q' PT]]]]; auto.
    rewrite (star_final _ _ _ S1 Q' fuel); [|rewrite mu_init; auto].
    rewrite (proj1 (star_effect _ _ _ S1)). exact PT.
  Qed.
End RunRounds.

Section Execute.
  Variable cfg : list action.
  Variable its : list iteration.
  Variable raised : list name -> signal -> bool.

  Lemma execute_sorted : forall t, wfb cfg its = true -> execute cfg its raised = Some t ->
    exists l, sort_actions cfg its = Ok l /\ Permutation l (names cfg) /\ NoDup l /\
              t = trace (run its raised (run_bound its l) (init l)).
  Proof.
    unfold execute. intros t W E. destruct (sort_actions cfg its) as [l| |] eqn:S; try discriminate.
    injection E as <-. pose proof (sort_perm cfg its l W S) as P. exists l. repeat split; auto.
    apply (Permutation_NoDup (Permutation_sym P)), (wfb_names cfg its W).
  Qed.

  Theorem execute_rounds : forall t, wfb cfg its = true -> execute cfg its raised = Some t ->
    exists l, Permutation l (names cfg) /\ segmented its (is_action cfg) l /\
              plan_trace its (is_action cfg) l t.
  Proof.
    intros t W E. destruct (execute_sorted t W E) as [l [S [P [N ->]]]]. exists l. split; [exact P|].
    pose proof (sort_contiguous cfg its l W S) as Sg. split; [exact Sg|].
    apply run_rounds; auto.
    - apply nodupb_NoDup. apply (wfb_split cfg its) in W. tauto.
    - apply (wfb_members_disjoint cfg its W).
    - intros x Hx. apply mem_In. apply (Permutation_in x P Hx).
  Qed.

  Theorem execute_correct : forall t, wfb cfg its = true -> iter_closedb cfg its = true -> execute cfg its raised = Some t ->
    (forall a, In a t <-> In a (names cfg)) /\
    (forall a, In a (names cfg) ->
       match iter_of its a with
       | None => count a t = 1
       | Some it => 1 <= count a t <= Nat.max (i_reps it) 1 /\ (quiet raised it -> count a t = Nat.max (i_reps it) 1)
       end) /\
    topo cfg t /\
    (exists l, Permutation l (names cfg) /\ length t <= run_bound its l).
  Proof.
    intros t W CL E. destruct (execute_sorted t W E) as [l [S [P [N ->]]]].
    assert (Hl : forall a, In a (names cfg) <-> In a l) by (split; apply Permutation_in; auto using Permutation_sym).
    split; [|split; [|split]].
    - intros a. rewrite Hl. symmetry. apply run_covers; auto.
    - intros a Ha. apply Hl in Ha. destruct (iter_of its a) as [it|] eqn:Hit.
      + split; [apply run_counts | intros Q; apply run_counts_quiet]; auto.
      + apply run_once; auto.
    - apply run_deps; auto. apply (sort_topological cfg its l W CL S).
    - exists l. split; [exact P|]. apply run_terminates. auto.
  Qed.
End Execute.
