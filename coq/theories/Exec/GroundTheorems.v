(* End-to-end statements for C17: the compiler's traversal (script) composed with the execution of
   the emitted statements against a persistent store. *)
From Coq Require Import List PeanoNat.
Import ListNotations.
From LV Require Import Exec.Ground Exec.GroundProofs.

Section EndToEnd.
  Variable grounded : pred -> bool.
  Variable deps : pred -> list pred.
  Variable reads : pred -> list pred.
  Variable B : Type.
  Variable eval_q : pred -> store B -> B.
  Variable spec : pred -> B.

  (* the hypotheses of Exec/GroundProofs.v, named as propositions *)
  Definition acyclic : Prop := forall p d, In d (deps p) -> d < p.
  Definition reads_frontier : Prop := forall p t, In t (reads p) ->
    exists d, In d (deps p) /\ ((grounded d = true /\ t = d) \/ (grounded d = false /\ In t (reads d))).
  Definition deterministic : Prop := forall d (s s' : store B),
    (forall t, In t (reads d) -> s t = s' t) -> eval_q d s = eval_q d s'.
  Definition queries_correct : Prop := forall d (s : store B),
    (forall t, In t (reads d) -> s t = Some (spec t)) -> eval_q d s = spec d.

  Hypothesis Hacyc : acyclic.
  Hypothesis Hreads : reads_frontier.

  (* the statements emitted when `main` is requested, and one run of them *)
  Definition script_for (main : pred) : list pred := script grounded deps (S main) main.
  Definition run_pred (main : pred) (s : store B) : option (store B) := run_script B eval_q (script_for main) s.

  Lemma script_spec : forall main, let st := compile grounded deps (S main) main in
    WF reads (out st) /\ ok st = true /\ (forall x, In x (out st) -> x < main) /\ incl (reads main) (out st).
  Proof. intros. apply (compile_spec grounded deps reads Hacyc Hreads). auto. Qed.

  Lemma wf_script : forall main, WF reads (script_for main).
  Proof. apply script_spec. Qed.

  Theorem e2e_postorder : forall main l1 d l2, script_for main = l1 ++ d :: l2 ->
    incl (reads d) l1 /\ ~ In d l1 /\ ~ In d l2.
  Proof using Hacyc Hreads.
    intros main l1 d l2 E. split. eapply WF_before; eauto. apply wf_script.
    pose proof (WF_nodup reads _ (wf_script main)) as N. rewrite E in N.
    apply NoDup_remove_2 in N. split; intros H; apply N, in_or_app; auto.
  Qed.

  Theorem e2e_in_fuel : forall main, ok (compile grounded deps (S main) main) = true.
  Proof using Hacyc Hreads. apply script_spec. Qed.

  Theorem e2e_self_request : forall main, ~ In main (script_for main).
  Proof using Hacyc Hreads. intros main H. apply script_spec in H. exact (Nat.lt_irrefl _ H). Qed.

  Theorem e2e_main_reads : forall main, incl (reads main) (script_for main).
  Proof using Hacyc Hreads. apply script_spec. Qed.

  Hypothesis Hdet : deterministic.

  Theorem e2e_run : forall main s0, exists s, run_pred main s0 = Some s /\
    (forall t, ~ In t (script_for main) -> s t = s0 t) /\
    (forall t, In t (script_for main) -> s t = Some (eval_q t s)) /\
    s main = s0 main.
  Proof using Hacyc Hreads Hdet.
    intros main s0.
    destruct (run_materialises reads B eval_q Hdet _ (wf_script main) s0) as (s & E & U & V).
    exists s. repeat split; auto. apply U, e2e_self_request.
  Qed.

  Theorem e2e_rerun : forall main s0 s, run_pred main s0 = Some s ->
    exists s', run_pred main s = Some s' /\ (forall t, s' t = s t) /\
               result B eval_q main s' = result B eval_q main s.
  Proof using Hacyc Hreads Hdet.
    intros main s0 s E.
    destruct (rerun_idempotent reads B eval_q Hdet _ (wf_script main) s0 s E) as (s' & E' & Eq).
    exists s'. split; [exact E'|]. split; [exact Eq|]. apply Hdet. auto.
  Qed.

  Hypothesis Hcorrect : queries_correct.

  Theorem e2e_faithful : forall main s0 s, run_pred main s0 = Some s ->
    (forall t, In t (script_for main) -> s t = Some (spec t)) /\ result B eval_q main s = spec main.
  Proof using Hacyc Hreads Hcorrect.
    intros main s0 s E.
    destruct (run_faithful reads B eval_q spec Hcorrect _ (wf_script main) s0) as (s1 & E1 & _ & V).
    unfold run_pred in E. rewrite E in E1. inversion E1; subst s1. split; auto.
    apply Hcorrect. intros t Ht. apply V, e2e_main_reads, Ht.
  Qed.

  (* histories of requests against one file *)
  Fixpoint run_history (ps : list pred) (s : store B) : option (store B) :=
    match ps with
    | [] => Some s
    | p :: tl => match run_pred p s with Some s' => run_history tl s' | None => None end
    end.

  Definition present (s : store B) (t : pred) : Prop := s t <> None.

  Theorem e2e_history : forall ps s0, clean B spec s0 ->
    exists s, run_history ps s0 = Some s /\ clean B spec s /\
      (forall t, present s0 t -> present s t) /\
      (forall p t, In p ps -> In t (script_for p) -> s t = Some (spec t)).
  Proof using Hacyc Hreads Hdet Hcorrect.
    induction ps as [|p tl IH]; intros s0 Hc; simpl.
    - exists s0. repeat split; auto. intros p t [].
    - destruct (run_faithful reads B eval_q spec Hcorrect _ (wf_script p) s0) as (s1 & E1 & U1 & V1).
      unfold run_pred. rewrite E1.
      assert (Keep : forall t, s1 t = s0 t \/ s1 t = Some (spec t)).
      { intros t. destruct (in_dec Nat.eq_dec t (script_for p)); auto. }
      destruct (IH s1) as (s & E & C & P & T).
      { intros t. destruct (Keep t) as [->| ->]; auto. }
      exists s. split; auto. split; auto. split.
      + intros t Pt. apply P. unfold present in *. destruct (Keep t) as [->| ->]; auto. discriminate.
      + intros q t [<-|Hq] Ht; [|eauto].
        destruct (C t) as [N|S]; auto. exfalso. apply (P t); auto.
        unfold present. rewrite V1; auto. discriminate.
  Qed.
End EndToEnd.
