(* Proofs for the @Ground model (Exec/Ground.v).  Two theorems carry the rest: compile_spec (the
   traversal emits a well-formed export order, WF) and run_spec (running any well-formed order
   leaves in each of its tables what it ought to hold). *)
From Coq Require Import List Bool PeanoNat Lia Permutation.
Import ListNotations.
From LV Require Import Util.ListFacts Exec.Ground.

Section ProgramProofs.
  Variable grounded : pred -> bool.
  Variable deps : pred -> list pred.
  (* reads p: the grounded tables the query compiled for p mentions *)
  Variable reads : pred -> list pred.

  (* acyclic program, predicates numbered in dependency order *)
  Hypothesis deps_lt : forall p d, In d (deps p) -> d < p.
  (* the query of p only mentions tables of the grounded frontier of p *)
  Hypothesis reads_sound : forall p t, In t (reads p) ->
    exists d, In d (deps p) /\
      ((grounded d = true /\ t = d) \/ (grounded d = false /\ In t (reads d))).

  (* a well-formed export order: no table twice, every table after the tables its query reads *)
  Inductive WF : list pred -> Prop :=
  | WF_nil : WF []
  | WF_snoc : forall l d, WF l -> ~ In d l -> incl (reads d) l -> WF (l ++ [d]).

  Notation visit := (visit grounded deps).
  Notation vlist f := (fold_left (fun s x => visit f x s)).

  (* The memo holds the tables already exported and the tables being compiled: [stack] is the
     chain of grounded predicates whose dependencies are being visited (the memo entry is made
     before, the export statement after).  [root] is the requested predicate: everything in the
     memo lies below it. *)
  Definition Inv (root : nat) (stack : list pred) (st : state) : Prop :=
    WF (out st) /\ NoDup (memo st) /\ Permutation (memo st) (stack ++ out st) /\
    forall x, In x (memo st) -> x < root.

  Lemma Inv_push : forall root d stack st, Inv root stack st -> ~ In d (memo st) -> d < root ->
    Inv root (d :: stack) (mkState (d :: memo st) (out st) (ok st)).
  Proof.
    intros root d stack st (W & N & M & L) Hd Hroot. repeat split; cbn [memo out]; auto.
    - constructor; assumption.
    - apply perm_skip, M.
    - intros x [<-|Hx]; auto.
  Qed.

  Lemma Inv_pop : forall root d stack st, Inv root (d :: stack) st -> incl (reads d) (out st) ->
    Inv root stack (mkState (memo st) (out st ++ [d]) (ok st)).
  Proof.
    intros root d stack st (W & N & M & L) Hr. repeat split; cbn [memo out]; auto.
    - apply WF_snoc; auto. intros H.
      (* d heads the stack and the memo has no duplicates: d is not exported yet *)
      apply (Permutation_NoDup M), NoDup_cons_iff, proj1 in N. apply N, in_or_app. auto.
    - rewrite app_assoc. apply (Permutation_trans M), Permutation_cons_append.
  Qed.

  Definition ext (st st' : state) : Prop := ok st' = ok st /\ incl (out st) (out st').

  (* after visiting d: its table is exported, or (d is compiled in place) the tables it reads are *)
  Definition covered (d : pred) (st : state) : Prop :=
    if grounded d then In d (out st) else incl (reads d) (out st).

  Lemma ext_refl : forall st, ext st st.
  Proof. intros st. split; auto. apply incl_refl. Qed.

  Lemma ext_trans : forall s1 s2 s3, ext s1 s2 -> ext s2 s3 -> ext s1 s3.
  Proof. intros s1 s2 s3 [O2 I2] [O3 I3]. split; [congruence|]. eapply incl_tran; eauto. Qed.

  Lemma covered_mono : forall d s s', covered d s -> ext s s' -> covered d s'.
  Proof.
    unfold covered. intros d s s' C [_ I]. destruct (grounded d); [|eapply incl_tran]; eauto.
  Qed.

  Lemma reads_covered : forall p st, (forall d, In d (deps p) -> covered d st) -> incl (reads p) (out st).
  Proof.
    intros p st H t Ht. destruct (reads_sound p t Ht) as (d & Hd & [[G ->]|[G Hr]]);
      specialize (H d Hd); unfold covered in H; rewrite G in H; auto.
  Qed.

  Lemma mem_in : forall d l, mem d l = true <-> In d l.
  Proof. exact (existsb_eqb_In Nat.eqb Nat.eqb_eq). Qed.

  (* [b] separates what is still to be visited (below b, within the fuel f) from the stack and
     [root] (at b or above): a memo hit below b is therefore an exported table *)
  Definition visit_ok (f : nat) : Prop := forall root d b st stack, d < b -> b <= f -> b <= root ->
    Inv root stack st -> (forall x, In x stack -> b <= x) ->
    Inv root stack (visit f d st) /\ ext st (visit f d st) /\ covered d (visit f d st).

  Lemma vlist_spec : forall f, visit_ok f -> forall root ds b st stack,
    (forall x, In x ds -> x < b) -> b <= f -> b <= root ->
    Inv root stack st -> (forall x, In x stack -> b <= x) ->
    Inv root stack (vlist f ds st) /\ ext st (vlist f ds st) /\
    forall d, In d ds -> covered d (vlist f ds st).
  Proof.
    intros f IHv root. induction ds as [|x tl IH]; intros b st stack Hlt Hb Hroot HI HS; cbn [fold_left].
    - split; auto. split. apply ext_refl. intros d [].
    - destruct (IHv root x b st stack) as (I1 & E1 & C1); auto. { apply Hlt; left; auto. }
      destruct (IH b (visit f x st) stack) as (I2 & E2 & C2); auto. { intros; apply Hlt; right; auto. }
      split; auto. split.
      + eapply ext_trans; eauto.
      + intros d [<-|Hd]; auto. eapply covered_mono; eauto.
  Qed.

  Lemma visit_spec : forall f, visit_ok f.
  Proof.
    induction f as [|f IHf]; intros root d b st stack Hd Hb Hroot HI HS. lia.
    assert (Hf : d <= f) by lia. assert (HdB : d < root) by lia.
    assert (HS' : forall x, In x (d :: stack) -> d <= x).
    { intros x [<-|Hx]; auto. specialize (HS x Hx). lia. }
    cbn [Ground.visit]. unfold covered at 1. destruct (grounded d) eqn:G.
    - destruct (mem d (memo st)) eqn:M.
      + split; auto. split. apply ext_refl. destruct HI as (_ & _ & P & _).
        apply mem_in, (Permutation_in _ P), in_app_or in M.
        destruct M as [M|M]; auto. specialize (HS d M). lia.
      + rewrite <- not_true_iff_false, mem_in in M.
        destruct (vlist_spec f IHf root (deps d) d _ (d :: stack) (deps_lt d) Hf (Nat.lt_le_incl _ _ HdB)
                    (Inv_push root d _ _ HI M HdB) HS') as (I2 & [O2 J2] & C2).
        split; [|split].
        * apply Inv_pop; auto. apply reads_covered; auto.
        * split; [exact O2|]. apply incl_appl, J2.
        * apply in_or_app. right; left; auto.
    - destruct (vlist_spec f IHf root (deps d) d st stack (deps_lt d) Hf (Nat.lt_le_incl _ _ HdB) HI)
        as (I2 & E2 & C2).
      { intros x Hx. apply HS'. right; auto. }
      split; auto. split; auto. apply reads_covered; auto.
  Qed.

  (* the export order produced by the compiler's traversal: every CREATE comes after the CREATEs of
     the tables its query reads, no table is written twice; asking for P itself emits no statement
     for P; every table P's own query reads is written *)
  Theorem compile_spec : forall fuel main, main <= fuel ->
    let st := compile grounded deps fuel main in
    WF (out st) /\ ok st = true /\ (forall x, In x (out st) -> x < main) /\ incl (reads main) (out st).
  Proof.
    intros fuel main Hf.
    destruct (vlist_spec fuel (visit_spec fuel) main (deps main) main init [] (deps_lt main) Hf (le_n _))
      as ((W & _ & M & L) & (O & _) & C).
    { repeat constructor. intros x []. }
    { intros x []. }
    unfold compile. cbn zeta. split; auto. split; auto. split.
    - intros x Hx. apply L, (Permutation_in _ (Permutation_sym M)), Hx.
    - apply reads_covered; auto.
  Qed.

  Lemma WF_nodup : forall l, WF l -> NoDup l.
  Proof.
    induction 1 as [|l d W IH Hn Hr]. constructor.
    apply (Permutation_NoDup (Permutation_cons_append l d)). constructor; auto.
  Qed.

  Lemma WF_before : forall l, WF l -> ordered reads l.
  Proof.
    induction 1 as [|l d W IH Hn Hr].
    - intros [|] ? ? E; discriminate E.
    - exact (ordered_snoc reads l d IH Hr).
  Qed.

  Lemma WF_reads : forall l, WF l -> forall d, In d l -> incl (reads d) l.
  Proof.
    intros l W d Hd. apply in_split in Hd. destruct Hd as (l1 & l2 & ->).
    apply incl_appl, (WF_before _ W l1 d l2 eq_refl).
  Qed.

  Variable B : Type.
  Variable eval_q : pred -> store B -> B.
  Notation run l s := (run_script B eval_q l s).

  Lemma exec_app : forall c1 c2 s, exec B eval_q (c1 ++ c2) s =
    match exec B eval_q c1 s with Some s' => exec B eval_q c2 s' | None => None end.
  Proof.
    induction c1 as [|c tl IH]; intros; simpl; auto. destruct (exec1 B eval_q s c); auto.
  Qed.

  Lemma upd_same : forall (s : store B) t v, upd B s t v t = v.
  Proof. intros. unfold upd. rewrite Nat.eqb_refl. auto. Qed.
  Lemma upd_other : forall (s : store B) t v x, x <> t -> upd B s t v x = s x.
  Proof. intros. unfold upd. apply Nat.eqb_neq in H. rewrite H. auto. Qed.

  Lemma run_snoc : forall l d s, run (l ++ [d]) s =
    match run l s with
    | Some s' => Some (upd B (upd B s' d None) d (Some (eval_q d (upd B s' d None))))
    | None => None
    end.
  Proof.
    intros. unfold run_script, stmts_of. rewrite flat_map_app, exec_app. simpl.
    destruct (exec B eval_q _ s); auto. rewrite upd_same. reflexivity.
  Qed.

  (* [want d s]: the bag table d ought to hold in store s.  It depends only on the tables d
     reads, and the query of d returns it once those tables hold what they ought to.  Two
     instances below: the value of d's own query (materialisation), the bag d denotes
     (faithfulness). *)
  Section Run.
    Variable want : pred -> store B -> B.
    Hypothesis want_det : forall d s s', (forall t, In t (reads d) -> s t = s' t) -> want d s = want d s'.
    Hypothesis want_hit : forall d s, (forall t, In t (reads d) -> s t = Some (want t s)) -> eval_q d s = want d s.

    (* no CREATE fails: its DROP precedes it *)
    Theorem run_spec : forall l, WF l -> forall s0, exists s, run l s0 = Some s /\
      (forall t, ~ In t l -> s t = s0 t) /\ (forall t, In t l -> s t = Some (want t s)).
    Proof.
      induction 1 as [|l d W IH Hn Hr]; intros s0.
      - exists s0. split. reflexivity. split; auto. intros t [].
      - destruct (IH s0) as (s1 & E1 & U1 & V1). rewrite run_snoc, E1.
        eexists. split. reflexivity.
        set (s1d := upd B s1 d None). set (s := upd B s1d d _).
        assert (Keep : forall s', (forall t, t <> d -> s' t = s1 t) ->
                  forall x, incl (reads x) l -> want x s' = want x s1).
        { intros s' A x Hx. apply want_det. intros t Ht. apply A. intros ->. auto. }
        assert (A1 : forall t, t <> d -> s1d t = s1 t) by (intros; apply upd_other; auto).
        assert (A2 : forall t, t <> d -> s t = s1 t) by (intros; unfold s; rewrite upd_other; auto).
        assert (Old : forall s', (forall t, t <> d -> s' t = s1 t) ->
                  forall t, In t l -> s' t = Some (want t s')).
        { intros s' A t Ht. rewrite A, (Keep s' A), V1.
          - reflexivity.
          - exact Ht.
          - apply WF_reads; assumption.
          - intros ->. exact (Hn Ht). }
        split.
        + intros t Ht. rewrite A2, U1.
          * reflexivity.
          * intros H. apply Ht, in_or_app. left. exact H.
          * intros ->. apply Ht, in_or_app. right. left. reflexivity.
        + intros t Ht. apply in_app_or in Ht. destruct Ht as [Ht|[<-|[]]].
          * apply (Old s A2), Ht.
          * unfold s at 1. rewrite upd_same, (Keep s A2 d Hr), <- (Keep s1d A1 d Hr). f_equal.
            apply want_hit. intros t Ht. apply (Old s1d A1), Hr, Ht.
    Qed.
  End Run.

  Hypothesis eval_det : forall d s s', (forall t, In t (reads d) -> s t = s' t) -> eval_q d s = eval_q d s'.

  Corollary run_materialises : forall l, WF l -> forall s0, exists s, run l s0 = Some s /\
    (forall t, ~ In t l -> s t = s0 t) /\ (forall t, In t l -> s t = Some (eval_q t s)).
  Proof. exact (run_spec eval_q eval_det (fun d s _ => eq_refl)). Qed.

  (* what the script writes does not depend on what the file held before *)
  Lemma materialised_unique : forall l s s', WF l ->
    (forall t, In t l -> s t = Some (eval_q t s)) -> (forall t, In t l -> s' t = Some (eval_q t s')) ->
    forall t, In t l -> s t = s' t.
  Proof.
    intros l s s' W. induction W as [|l d W IH Hn Hr]; intros V V' t Ht. destruct Ht.
    assert (IH' : forall t, In t l -> s t = s' t).
    { apply IH; intros x Hx; [apply V|apply V']; apply in_or_app; auto. }
    apply in_app_or in Ht. destruct Ht as [Ht|[<-|[]]]; auto.
    rewrite V, V' by (apply in_or_app; right; left; auto). f_equal. apply eval_det; auto.
  Qed.

  Theorem script_materialises : forall l, WF l -> forall s0 s, run l s0 = Some s ->
    forall t, In t l -> s t = Some (eval_q t s).
  Proof.
    intros l W s0 s E. destruct (run_materialises l W s0) as (s1 & E1 & _ & V).
    rewrite E in E1. inversion E1; subst. auto.
  Qed.

  Theorem rerun_idempotent : forall l, WF l -> forall s0 s, run l s0 = Some s ->
    exists s', run l s = Some s' /\ forall t, s' t = s t.
  Proof.
    intros l W s0 s E. destruct (run_materialises l W s) as (s' & E' & U & V).
    exists s'. split; auto. intros t. destruct (in_dec Nat.eq_dec t l) as [Hi|Hn]; auto.
    apply (materialised_unique l s' s W V (script_materialises l W s0 s E)), Hi.
  Qed.

  Variable spec : pred -> B.   (* the bag p denotes (evaluation without @Ground) *)
  (* each single query is compiled correctly: on a store whose read tables hold the specified bags
     it returns the specified bag (this is the subject of C01; validated per instance by the tie) *)
  Hypothesis query_correct : forall d s, (forall t, In t (reads d) -> s t = Some (spec t)) -> eval_q d s = spec d.

  Corollary run_faithful : forall l, WF l -> forall s0, exists s, run l s0 = Some s /\
    (forall t, ~ In t l -> s t = s0 t) /\ (forall t, In t l -> s t = Some (spec t)).
  Proof. exact (run_spec (fun d _ => spec d) (fun d s s' _ => eq_refl) query_correct). Qed.

  (* a file is `clean` when every table in it holds the specified bag; by run_faithful any run of
     any predicate keeps the file clean, so interleaved runs of different predicates never leave a
     stale table behind (GroundTheorems.e2e_history) *)
  Definition clean (s : store B) : Prop := forall t, s t = None \/ s t = Some (spec t).
End ProgramProofs.
