(* Exec/ConcertinaProofs.v — proofs about the model Exec/Concertina.v: what `wfb` gives, and Run for every
   oracle.  One step is read as a relation (steps_to); termination within run_bound comes from a measure that
   every step decreases (mu), the counts, the stop signal and the dependency order from invariants of the step
   carried along the run (run_inv).  SortActions and sort + run are in Exec/ConcertinaRounds.v. *)
From Coq Require Import List Bool Arith Lia Permutation.
Import ListNotations.
From LV Require Import Util.ListFacts Util.SortedFacts Exec.Concertina.

Lemma mem_In : forall x l, mem x l = true <-> In x l.
Proof. exact (existsb_eqb_In Nat.eqb Nat.eqb_eq). Qed.

Lemma mem_false : forall x l, mem x l = false <-> ~ In x l.
Proof. exact (existsb_eqb_false Nat.eqb Nat.eqb_eq). Qed.

Lemma subset_spec : forall l1 l2, subset l1 l2 = true <-> (forall x, In x l1 -> In x l2).
Proof.
  intros. unfold subset. rewrite forallb_forall. split; intros H x Hx.
  - apply mem_In. auto.
  - apply mem_In. auto.
Qed.

Lemma In_remove_one : forall a x l, In x (remove_one a l) <-> In x l /\ x <> a.
Proof.
  intros. unfold remove_one. rewrite filter_In. rewrite negb_true_iff, Nat.eqb_neq. tauto.
Qed.

Lemma In_remove_all : forall xs x l, In x (remove_all xs l) <-> In x l /\ ~ In x xs.
Proof.
  intros. unfold remove_all. rewrite filter_In. rewrite negb_true_iff, mem_false. tauto.
Qed.

Lemma remove_all_nil : forall l, remove_all [] l = l.
Proof. intros l. apply filter_all_iff. reflexivity. Qed.

Lemma remove_all_perm : forall es l, NoDup l -> NoDup es -> incl es l -> Permutation (es ++ remove_all es l) l.
Proof.
  intros es l Nl Ne Hi. apply NoDup_Permutation; auto.
  - apply NoDup_app; [exact Ne | apply NoDup_filter; exact Nl |].
    intros x Hx Hr. apply In_remove_all in Hr. tauto.
  - intros x. rewrite in_app_iff, In_remove_all. split; [intros [?|[? ?]]; auto|].
    intros Hx. destruct (in_dec Nat.eq_dec x es); auto.
Qed.

Lemma remove_one_perm : forall a l, NoDup l -> In a l -> Permutation (a :: remove_one a l) l.
Proof.
  intros a l Nl Ha. apply NoDup_Permutation; auto.
  - constructor; [rewrite In_remove_one; tauto | apply NoDup_filter; auto].
  - intros x. simpl. rewrite In_remove_one. split; [intros [<-|[? ?]]; auto|].
    intros Hx. destruct (Nat.eq_dec a x); auto.
Qed.

Lemma filter_before : forall (f : nat -> bool) m r L e1 e2,
  filter f L = e1 ++ m :: e2 -> In r (before m L) -> f r = true -> In r e1.
Proof.
  induction L as [|x L IH]; simpl; intros e1 e2 E B F; [contradiction|].
  destruct (x =? m) eqn:Exm; [contradiction|]. apply Nat.eqb_neq in Exm.
  destruct (f x) eqn:Fx.
  - destruct e1 as [|y e1]; simpl in E; inversion E; subst; [congruence|].
    destruct B as [->|B]; [left; reflexivity | right; eapply IH; eauto].
  - destruct B as [->|B]; [congruence | eapply IH; eauto].
Qed.

Lemma sort_names_perm : forall l, Permutation (sort_names l) l.
Proof. apply (srt_perm Nat.leb insert_sorted); reflexivity. Qed.

Section Config.
  Variable cfg : list action.
  Variable its : list iteration.

  Lemma nodupb_NoDup : forall l, nodupb l = true -> NoDup l.
  Proof.
    induction l; simpl; intros H; [constructor|]. apply andb_true_iff in H. destruct H as [H1 H2].
    constructor; auto. apply mem_false. apply negb_true_iff. exact H1.
  Qed.

  Lemma pairwise_disjoint_cons : forall l ls, pairwise_disjoint (l :: ls) = true <->
    (forall l', In l' ls -> forall x, In x l -> ~ In x l') /\ pairwise_disjoint ls = true.
  Proof.
    intros l ls. simpl. rewrite andb_true_iff, forallb_forall.
    enough (E : forall l', forallb (fun x => negb (mem x l')) l = true <-> forall x, In x l -> ~ In x l').
    { split; intros [A B]; (split; [|exact B]); intros l' Hl'; apply E, A, Hl'. }
    intros l'. rewrite forallb_forall. split; intros A x Hx; [apply mem_false, negb_true_iff | apply negb_true_iff, mem_false]; auto.
  Qed.

  Definition members_disjoint :=
    forall it1 it2 m, In it1 its -> In it2 its -> In m (i_members it1) -> In m (i_members it2) -> it1 = it2.

  Lemma wfb_split : wfb cfg its = true ->
    nodupb (names cfg) = true /\ nodupb (map i_id its) = true /\
    forallb (fun it => nodupb (i_members it)) its = true /\ pairwise_disjoint (map i_members its) = true.
  Proof. unfold wfb. rewrite !andb_true_iff. tauto. Qed.

  Lemma wfb_names : wfb cfg its = true -> NoDup (names cfg).
  Proof. intros H. apply wfb_split in H. apply nodupb_NoDup. tauto. Qed.

  Lemma wfb_members_nodup : wfb cfg its = true -> forall it, In it its -> NoDup (i_members it).
  Proof.
    intros H it Hit. apply wfb_split in H. destruct H as [_ [_ [Hc _]]].
    rewrite forallb_forall in Hc. apply nodupb_NoDup; auto.
  Qed.

  Lemma wfb_members_disjoint : wfb cfg its = true -> members_disjoint.
  Proof.
    intros H. apply wfb_split in H. destruct H as [_ [_ [_ Hd]]].
    unfold members_disjoint. revert Hd. generalize its as L.
    induction L as [|x L IH]; intros Hd it1 it2 m I1 I2 M1 M2; [contradiction|].
    change (pairwise_disjoint (i_members x :: map i_members L) = true) in Hd.
    apply pairwise_disjoint_cons in Hd. destruct Hd as [Ha Hb].
    assert (X : forall it, In it L -> In m (i_members x) -> ~ In m (i_members it)).
    { intros it Hi. apply Ha, in_map, Hi. }
    destruct I1 as [<-|I1], I2 as [<-|I2].
    - reflexivity.
    - elim (X it2 I2 M1 M2).
    - elim (X it1 I1 M2 M1).
    - exact (IH Hb it1 it2 m I1 I2 M1 M2).
  Qed.

  Lemma iter_of_Some : forall a it, iter_of its a = Some it -> In it its /\ In a (i_members it).
  Proof. unfold iter_of. intros a it H. apply find_some in H. rewrite mem_In in H. exact H. Qed.

  Lemma iter_of_None : forall a, iter_of its a = None -> forall it, In it its -> ~ In a (i_members it).
  Proof. unfold iter_of. intros a H it Hit. apply mem_false. eapply find_none in H; eauto. Qed.

  Lemma iter_of_unique : members_disjoint -> forall a it, In it its -> In a (i_members it) -> iter_of its a = Some it.
  Proof.
    intros D a it Hit Ha. destruct (iter_of its a) as [it'|] eqn:E.
    - apply iter_of_Some in E. destruct E. f_equal. eapply D; eauto.
    - exfalso. eapply iter_of_None; eauto.
  Qed.

  (* convertible to ordered (own_requires cfg) l of Util/ListFacts.v, whose lemmas apply as they stand *)
  Definition topo (l : list name) : Prop :=
    forall l1 x l2, l = l1 ++ x :: l2 -> forall r, In r (own_requires cfg x) -> In r l1.

  Definition sorted_from_names := sort_loop cfg its (sort_fuel cfg) None [] (sort_names (names cfg)) [].
End Config.

Section RunProofs.
  Variable its : list iteration.
  Variable raised : list name -> signal -> bool.

  Notation step := (step its raised).
  Notation run := (run its raised).

  Lemma count_occ_eq : forall a l, count a l = count_occ Nat.eq_dec l a.
  Proof.
    induction l as [|x l IH]; simpl; auto. rewrite IH.
    destruct (Nat.eq_dec x a) as [E|E]; [apply Nat.eqb_eq in E | apply Nat.eqb_neq in E]; rewrite E; reflexivity.
  Qed.

  Lemma count_app : forall a l1 l2, count a (l1 ++ l2) = count a l1 + count a l2.
  Proof. intros. rewrite !count_occ_eq. apply count_occ_app. Qed.

  Lemma count_snoc : forall x l a, count x (l ++ [a]) = count x l + (if a =? x then 1 else 0).
  Proof. intros. rewrite count_app. simpl. lia. Qed.

  Lemma upd_S : forall c a x, upd c a (S (c a)) x = c x + (if a =? x then 1 else 0).
  Proof. intros. unfold upd. rewrite (Nat.eqb_sym x a). destruct (Nat.eqb_spec a x) as [->|_]; lia. Qed.

  Lemma count_In : forall a l, In a l <-> 1 <= count a l.
  Proof. intros. rewrite count_occ_eq. apply count_occ_In. Qed.

  Lemma NoDup_count : forall l, NoDup l <-> forall a, count a l <= 1.
  Proof. intros. rewrite (NoDup_count_occ Nat.eq_dec). split; intros H a; [rewrite count_occ_eq | rewrite <- count_occ_eq]; apply H. Qed.

  (* the re-queued action goes somewhere into the queue; where exactly matters only for the rounds *)
  Lemma insert_split : forall it a l, exists l1 l2, l = l1 ++ l2 /\ insert_after_run its it a l = l1 ++ a :: l2.
  Proof.
    induction l as [|x l IH]; simpl.
    - exists [], []. auto.
    - destruct (same_iter its it x).
      + destruct IH as [l1 [l2 [E1 E2]]]. exists (x :: l1), l2. simpl. rewrite E2. subst. auto.
      + exists [], (x :: l). auto.
  Qed.

  Lemma insert_perm : forall it a l, Permutation (insert_after_run its it a l) (a :: l).
  Proof.
    intros. destruct (insert_split it a l) as [l1 [l2 [E1 E2]]]. rewrite E2, E1.
    apply Permutation_sym, Permutation_middle.
  Qed.

  Lemma In_insert : forall it a l x, In x (insert_after_run its it a l) <-> In x (a :: l).
  Proof. intros. split; apply Permutation_in; [|apply Permutation_sym]; apply insert_perm. Qed.

  Lemma count_insert : forall it a l x, count x (insert_after_run its it a l) = count x (a :: l).
  Proof. intros. rewrite !count_occ_eq. apply Permutation_count_occ, insert_perm. Qed.

  Definition latched (it : iteration) (w : list signal) : Prop :=
    exists sg, i_stop it = Some sg /\ In sg w.

  Definition grows (w w' : list signal) (tr : list name) : Prop :=
    incl w w' /\ forall sg, In sg w' -> In sg w \/ raised tr sg = true.

  Lemma grows_refl : forall w tr, grows w w tr.
  Proof. split; [apply incl_refl | auto]. Qed.

  Lemma latched_grows : forall it w w' tr, grows w w' tr -> latched it w -> latched it w'.
  Proof. intros it w w' tr [G _] [sg [E H]]. exists sg. auto. Qed.

  Lemma poll_spec : forall w tr it b w', poll raised w tr (i_stop it) = (b, w') ->
    grows w w' tr /\
    if b then latched it w'
    else w' = w /\ ~ latched it w /\ forall sg, i_stop it = Some sg -> raised tr sg = false.
  Proof.
    unfold poll, latched. intros w tr it b w' H. destruct (i_stop it) as [sg|].
    - destruct (mem sg w) eqn:M; [|destruct (raised tr sg) eqn:R]; injection H as <- <-.
      + apply mem_In in M. split; [apply grows_refl | eauto].
      + split; [split; [apply incl_tl, incl_refl | intros s [<-|Hs]; auto] | eauto using in_eq].
      + apply mem_false in M. split; [apply grows_refl|]. repeat split.
        * intros [s [E Hs]]. injection E as <-. contradiction.
        * intros s E. injection E as <-. exact R.
    - injection H as <- <-. split; [apply grows_refl|]. repeat split; [intros [s [E _]] | intros s E]; discriminate.
  Qed.

  (* RunOneAction + UpdateStateForIterativeAction as a relation, for the queue a :: q'.  One step has three
     outcomes: a is not iterated; a is iterated and leaves the queue for good (repetitions used up, or its
     poll said stop: the signal is latched afterwards); a is iterated and is queued again (its poll found
     nothing). *)
  Inductive steps_to (s : st) (a : name) (q' : list name) : st -> Prop :=
  | step_plain : iter_of its a = None ->
      steps_to s a q' (mkSt q' (cnt s) (wrench s) (trace s ++ [a]))
  | step_last : forall it w', iter_of its a = Some it ->
      grows (wrench s) w' (trace s ++ [a]) -> i_reps it <= S (cnt s a) \/ latched it w' ->
      steps_to s a q' (mkSt q' (upd (cnt s) a (S (cnt s a))) w' (trace s ++ [a]))
  | step_again : forall it, iter_of its a = Some it ->
      S (cnt s a) < i_reps it -> ~ latched it (wrench s) ->
      (forall sg, i_stop it = Some sg -> raised (trace s ++ [a]) sg = false) ->
      steps_to s a q' (mkSt (insert_after_run its it a q') (upd (cnt s) a (S (cnt s a))) (wrench s) (trace s ++ [a])).

  Lemma step_cons : forall s a q', q s = a :: q' -> exists s', step s = Some s' /\ steps_to s a q' s'.
  Proof.
    intros s a q' Eq. unfold Concertina.step. rewrite Eq. cbv zeta.
    destruct (iter_of its a) as [it|] eqn:Hit; [|eexists; split; [reflexivity | apply step_plain; exact Hit]].
    destruct (Nat.leb_spec (i_reps it) (S (cnt s a))) as [Er|Er].
    - eexists. split; [reflexivity|]. eapply step_last; eauto using grows_refl.
    - destruct (poll raised (wrench s) (trace s ++ [a]) (i_stop it)) as [b w'] eqn:Ep.
      apply poll_spec in Ep. destruct Ep as [G L]. destruct b; eexists; (split; [reflexivity|]).
      + eapply step_last; eauto.
      + destruct L as [-> [L R]]. apply step_again; auto.
  Qed.

  Lemma step_inv : forall s s', step s = Some s' -> exists a q', q s = a :: q' /\ steps_to s a q' s'.
  Proof.
    intros s s' H. destruct (q s) as [|a q'] eqn:Eq; [unfold Concertina.step in H; rewrite Eq in H; discriminate|].
    destruct (step_cons s a q' Eq) as [s1 [E F]]. replace s' with s1 by congruence. eauto.
  Qed.

  Lemma step_grows : forall s s', step s = Some s' -> grows (wrench s) (wrench s') (trace s').
  Proof. intros s s' H. destruct (step_inv _ _ H) as [a [q' [_ F]]]. destruct F; simpl; auto using grows_refl. Qed.

  Lemma step_None : forall s, step s = None -> q s = [].
  Proof.
    intros s H. destruct (q s) as [|a q'] eqn:Eq; [reflexivity|].
    destruct (step_cons s a q' Eq) as [s1 [E _]]. congruence.
  Qed.

  Lemma run_inv : forall P : st -> Prop, (forall s s', P s -> step s = Some s' -> P s') ->
    forall fuel s, P s -> P (run fuel s).
  Proof.
    intros P HP. induction fuel; simpl; intros s H; auto. destruct (step s) eqn:E; eauto.
  Qed.

  (* termination: the measure "runs still owed by the queue" decreases at every step *)
  Definition remaining (c : name -> nat) (a : name) : nat :=
    match iter_of its a with None => 1 | Some it => Nat.max (i_reps it - c a) 1 end.
  Definition mu (s : st) : nat := list_sum (map (remaining (cnt s)) (q s)).

  Lemma list_sum_le : forall (f g : name -> nat) l, (forall x, f x <= g x) ->
    list_sum (map f l) <= list_sum (map g l).
  Proof. induction l; simpl; intros; auto. specialize (H a) as Ha. specialize (IHl H). lia. Qed.

  Lemma remaining_pos : forall c a, 1 <= remaining c a.
  Proof. intros. unfold remaining. destruct (iter_of its a); lia. Qed.

  Lemma remaining_upd : forall c a v x, c a <= v -> remaining (upd c a v) x <= remaining c x.
  Proof.
    intros. unfold remaining, upd. destruct (iter_of its x); auto. destruct (x =? a) eqn:E; auto.
    apply Nat.eqb_eq in E. subst. lia.
  Qed.

  Lemma step_mu : forall s s', step s = Some s' ->
    mu s' < mu s /\ length (trace s') = S (length (trace s)).
  Proof.
    intros s s' H. unfold mu.
    assert (Hle : forall a l, list_sum (map (remaining (upd (cnt s) a (S (cnt s a)))) l)
                              <= list_sum (map (remaining (cnt s)) l)).
    { intros. apply list_sum_le. intros x. apply remaining_upd. lia. }
    destruct (step_inv _ _ H) as [a [q' [Eq F]]]. rewrite Eq. pose proof (remaining_pos (cnt s) a) as Hp.
    destruct F as [Hit | it w' Hit _ _ | it Hit Hlt _ _];
      simpl; rewrite app_length, Nat.add_1_r; (split; [|reflexivity]).
    - lia.
    - specialize (Hle a q'). lia.
    - rewrite (Permutation_list_sum (Permutation_map _ (insert_perm it a q'))). simpl. specialize (Hle a q').
      assert (remaining (upd (cnt s) a (S (cnt s a))) a < remaining (cnt s) a); [|lia].
      unfold remaining. rewrite Hit. unfold upd. rewrite Nat.eqb_refl. lia.
  Qed.

  Lemma run_terminates_mu : forall fuel s, mu s <= fuel ->
    q (run fuel s) = [] /\ length (trace (run fuel s)) <= length (trace s) + mu s.
  Proof.
    induction fuel as [|f IH]; intros s Hm; simpl.
    - split; [|lia]. unfold mu in Hm. destruct (q s) as [|a q']; auto. simpl in Hm.
      pose proof (remaining_pos (cnt s) a). lia.
    - destruct (step s) as [s'|] eqn:E.
      + destruct (step_mu s s' E) as [H1 H2]. destruct (IH s') as [A B]; [lia|]. split; auto. lia.
      + split; [apply step_None; exact E | lia].
  Qed.

  Lemma mu_init : forall l, mu (init l) = run_bound its l.
  Proof.
    intros. unfold mu, run_bound, init. simpl. f_equal. apply map_ext. intros a.
    unfold remaining, weight. destruct (iter_of its a); auto. rewrite Nat.sub_0_r. reflexivity.
  Qed.

  Theorem run_terminates : forall l fuel, run_bound its l <= fuel ->
    q (run fuel (init l)) = [] /\ length (trace (run fuel (init l))) <= run_bound its l.
  Proof.
    intros l fuel H. rewrite <- mu_init in *. destruct (run_terminates_mu fuel (init l) H). split; auto.
  Qed.

  Variable l0 : list name.

  (* The ledger of an action x.  Its occurrences in queue and trace together are those in l0, plus one for every
     time it was queued again; so for a non-iterated x they stay as many as in l0, and an iterated x has its
     counter equal to its runs, with room below max(reps,1) for the run it is queued for. *)
  Definition invK (s : st) : Prop := forall x,
    count x (q s) <= 1 /\
    (1 <= count x l0 <-> 1 <= count x (q s) + count x (trace s)) /\
    match iter_of its x with
    | None => count x (q s) + count x (trace s) = count x l0
    | Some it => cnt s x = count x (trace s) /\ cnt s x + count x (q s) <= Nat.max (i_reps it) 1
    end.

  Lemma invK_init : NoDup l0 -> invK (init l0).
  Proof.
    intros N x. simpl. rewrite !Nat.add_0_r. split; [apply NoDup_count, N|]. split; [tauto|].
    destruct (iter_of its x); [split; [reflexivity|] | reflexivity]. apply NoDup_count with (a := x) in N. lia.
  Qed.

  Lemma steps_to_other : forall s a q' s' x, steps_to s a q' s' -> a <> x ->
    count x (q s') = count x q' /\ count x (trace s') = count x (trace s) /\ cnt s' x = cnt s x.
  Proof.
    intros s a q' s' x F Hne. apply Nat.eqb_neq in Hne.
    destruct F; cbn [q cnt trace]; rewrite count_snoc, Hne, Nat.add_0_r.
    - auto.
    - rewrite upd_S, Hne, Nat.add_0_r. auto.
    - rewrite upd_S, count_insert, Hne, Nat.add_0_r. cbn [count]. rewrite Hne. auto.
  Qed.

  Lemma invK_step : forall s s', invK s -> step s = Some s' -> invK s'.
  Proof.
    intros s s' K H x. specialize (K x). destruct (step_inv _ _ H) as [a [q' [Eq F]]].
    rewrite Eq in K. cbn [count] in K. destruct (Nat.eqb_spec a x) as [<-|Hne].
    - (* the action run: each outcome is rewritten to the old counts, and the clause of the ledger that applies
         is the one for a's iteration *)
      destruct F as [Hit | it w' Hit _ _ | it Hit Hlt _ _]; cbn [q cnt trace]; rewrite Hit in *.
      + rewrite count_snoc, Nat.eqb_refl. lia.
      + rewrite count_snoc, upd_S, Nat.eqb_refl. lia.
      + (* a goes to the trace and stays queued: S (cnt s a) < reps leaves room for that run *)
        rewrite count_snoc, upd_S, count_insert. cbn [count]. rewrite Nat.eqb_refl. lia.
    - (* the ledger of another action does not move *)
      destruct (steps_to_other _ _ _ _ x F Hne) as [-> [-> ->]]. exact K.
  Qed.

  Lemma run_ledger : NoDup l0 -> forall fuel, invK (run fuel (init l0)).
  Proof. intros N fuel. apply (run_inv invK invK_step), invK_init, N. Qed.

  (* clause (a) of the Spec valid_trace (Exec/Concertina.v) *)
  Theorem run_once : forall fuel a, NoDup l0 -> run_bound its l0 <= fuel -> In a l0 -> iter_of its a = None ->
    count a (trace (run fuel (init l0))) = 1.
  Proof.
    intros fuel a N F Ha Hit. destruct (run_terminates l0 fuel F) as [Q _].
    destruct (run_ledger N fuel a) as [_ [_ K]]. rewrite Q, Hit in K. simpl in K.
    apply count_In in Ha. apply NoDup_count with (a := a) in N. lia.
  Qed.

  Theorem run_covers : forall fuel a, NoDup l0 -> run_bound its l0 <= fuel ->
    (In a l0 <-> In a (trace (run fuel (init l0)))).
  Proof.
    intros fuel a N F. destruct (run_terminates l0 fuel F) as [Q _].
    destruct (run_ledger N fuel a) as [_ [K _]]. rewrite Q in K. rewrite !count_In. exact K.
  Qed.

  (* clause (b) of the Spec valid_trace (Exec/Concertina.v): the bounds *)
  Theorem run_counts : forall fuel a it, NoDup l0 -> run_bound its l0 <= fuel -> In a l0 -> iter_of its a = Some it ->
    1 <= count a (trace (run fuel (init l0))) <= Nat.max (i_reps it) 1.
  Proof.
    intros fuel a it N F Ha Hit. destruct (run_terminates l0 fuel F) as [Q _].
    destruct (run_ledger N fuel a) as [_ [Kcov K]]. rewrite Q, Hit in *. simpl in *. apply count_In in Ha. lia.
  Qed.

  Definition quiet (it : iteration) : Prop :=
    match i_stop it with None => True | Some sg => forall tr, raised tr sg = false end.

  Definition wrench_raised (s : st) : Prop := forall sg, In sg (wrench s) -> exists tr, raised tr sg = true.

  Lemma wrench_raised_step : forall s s', wrench_raised s -> step s = Some s' -> wrench_raised s'.
  Proof. intros s s' W H sg Hs. destruct (step_grows _ _ H) as [_ G]. destruct (G sg Hs); eauto. Qed.

  Definition invU (s : st) : Prop :=
    forall x it, iter_of its x = Some it -> In x l0 ->
      In x (q s) \/ i_reps it <= cnt s x \/ latched it (wrench s).

  Lemma invU_step : forall s s', invU s -> step s = Some s' -> invU s'.
  Proof.
    intros s s' U H x jt Hx Hl. specialize (U x jt Hx Hl). destruct (step_inv _ _ H) as [a [q' [Eq F]]].
    rewrite Eq in U. destruct F as [Hit | it w' Hit G Hd | it Hit _ _ _]; simpl; unfold upd.
    - destruct U as [[->|U]|U]; [congruence | auto | auto].
    - destruct (Nat.eqb_spec x a) as [->|Hne].
      + replace jt with it by congruence. destruct Hd; auto.
      + destruct U as [[->|U]|[U|U]]; eauto using latched_grows. contradiction.
    - rewrite In_insert. destruct U as [U|[U|U]]; auto.
      right. left. destruct (Nat.eqb_spec x a) as [->|_]; lia.
  Qed.

  (* clause (b) of the Spec valid_trace (Exec/Concertina.v): fewer than max(reps,1) runs only after a poll saw the
     signal (one direction of the stop rule) *)
  Theorem run_counts_unseen : forall fuel a it,
    NoDup l0 -> run_bound its l0 <= fuel -> In a l0 -> iter_of its a = Some it ->
    (forall sg, i_stop it = Some sg -> ~ In sg (wrench (run fuel (init l0)))) ->
    count a (trace (run fuel (init l0))) = Nat.max (i_reps it) 1.
  Proof.
    intros fuel a it N F Ha Hit Hw.
    destruct (run_counts fuel a it N F Ha Hit) as [L U].
    destruct (run_terminates l0 fuel F) as [Qe _].
    assert (I : invU (init l0)) by (intros x j _ Hx; left; exact Hx).
    pose proof (run_inv invU invU_step fuel _ I a it Hit Ha) as Q. rewrite Qe in Q.
    destruct Q as [[]|[Q|[sg [E1 E2]]]]; [|exfalso; eapply Hw; eauto].
    destruct (run_ledger N fuel a) as [_ [_ K]]. rewrite Hit in K. lia.
  Qed.

  (* in particular when the signal is never raised: only raised signals get into wrench_in_gears *)
  Theorem run_counts_quiet : forall fuel a it, NoDup l0 -> run_bound its l0 <= fuel -> In a l0 ->
    iter_of its a = Some it -> quiet it ->
    count a (trace (run fuel (init l0))) = Nat.max (i_reps it) 1.
  Proof.
    intros fuel a it N F Ha Hit Qt. apply run_counts_unseen; auto. intros sg E Hs.
    assert (I : wrench_raised (init l0)) by (intros ? []).
    destruct (run_inv wrench_raised wrench_raised_step fuel _ I sg Hs) as [tr R].
    unfold quiet in Qt. rewrite E in Qt. congruence.
  Qed.

  (* once the stop signal is latched, a member is not queued again: its occurrences in queue and trace stay as many *)
  Definition invS (a : name) (sg : signal) (c : nat) (s : st) : Prop :=
    In sg (wrench s) /\ count a (q s) + count a (trace s) <= c.

  Lemma invS_step : forall a it sg c, iter_of its a = Some it -> i_stop it = Some sg ->
    forall s s', invS a sg c s -> step s = Some s' -> invS a sg c s'.
  Proof.
    intros a it sg c Hit Hsg s s' [W A] H. destruct (step_inv _ _ H) as [x [q' [Eq F]]].
    rewrite Eq in A. cbn [count] in A.
    destruct F as [Hx | jt w' Hx [G _] _ | jt Hx _ Hnl _]; unfold invS; cbn [q wrench trace]; rewrite count_snoc.
    - split; [exact W | lia].
    - split; [apply G, W | lia].
    - (* only here the sum can grow, if the head x queued again is a: but a's signal is latched *)
      rewrite count_insert. cbn [count]. split; [exact W|].
      destruct (Nat.eqb_spec x a) as [->|_]; [|lia].
      elim Hnl. exists sg. split; [congruence | exact W].
  Qed.

  Theorem run_after_latch : forall s fuel a it sg, count a (q s) <= 1 -> iter_of its a = Some it ->
    i_stop it = Some sg -> In sg (wrench s) -> count a (trace (run fuel s)) <= S (count a (trace s)).
  Proof.
    intros s fuel a it sg N Hit Hsg W.
    destruct (run_inv _ (invS_step a it sg (S (count a (trace s))) Hit Hsg) fuel s) as [_ A]; [split; [exact W | lia] | lia].
  Qed.

  Theorem run_after_signal : forall f1 f2 a it sg,
    NoDup l0 -> iter_of its a = Some it -> i_stop it = Some sg ->
    In sg (wrench (run f1 (init l0))) ->
    count a (trace (run f2 (run f1 (init l0)))) <= S (count a (trace (run f1 (init l0)))).
  Proof. intros f1 f2 a it sg N. apply run_after_latch, (run_ledger N f1 a). Qed.

  Theorem poll_records : forall s s' a q' it sg,
    step s = Some s' -> q s = a :: q' -> iter_of its a = Some it -> i_stop it = Some sg ->
    S (cnt s a) < i_reps it -> raised (trace s ++ [a]) sg = true -> In sg (wrench s').
  Proof.
    intros s s' a q' it sg H Q Hit Hsg L R. destruct (step_cons s a q' Q) as [s1 [E F]].
    rewrite H in E. injection E as <-.
    destruct F as [Hn | jt w' Hj _ Hd | jt Hj _ _ Hq]; try congruence; replace jt with it in * by congruence; simpl.
    - destruct Hd as [Hd|[sg' [E1 E2]]]; [lia | congruence].
    - rewrite (Hq sg Hsg) in R. discriminate.
  Qed.

  Variable cfg : list action.

  (* Trace and queue, read as one list, are in dependency order.  A step moves the head of the queue to the end of
     the trace, which leaves that list as it is, and may queue the action again further back. *)
  Definition invD (s : st) : Prop := topo cfg (trace s ++ q s).

  Lemma invD_step : forall s s', invD s -> step s = Some s' -> invD s'.
  Proof.
    unfold invD. intros s s' T H. destruct (step_inv _ _ H) as [a [q' [Eq F]]]. rewrite Eq in T.
    destruct F as [_ | it w' _ _ _ | it _ _ _ _]; cbn [q trace]; rewrite <- app_assoc; cbn [app].
    - exact T.
    - exact T.
    - (* a comes in again behind l1: what it requires stands before its first run *)
      destruct (insert_split it a q') as [l1 [l2 [-> ->]]].
      rewrite app_comm_cons, app_assoc in T |- *. apply ordered_insert; [exact T|].
      apply incl_appl. apply ordered_prefix in T. exact (T _ _ _ eq_refl).
  Qed.

  (* clause (c) of the Spec valid_trace (Exec/Concertina.v) *)
  Theorem run_deps : NoDup l0 -> topo cfg l0 -> forall fuel, topo cfg (trace (run fuel (init l0))).
  Proof. intros _ T fuel. eapply ordered_prefix. apply (run_inv invD invD_step). exact T. Qed.
End RunProofs.

