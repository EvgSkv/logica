(* The ORDER BY / LIMIT oracle (Exec/OrderLimit.v), first over any total preorder [leb]: the answer
   is a sorted prefix holding the k smallest rows and, where [leb] is antisymmetric on the rows at
   hand, does not depend on the order of arrival.  Then [lex_leb keys] is such an order, and
   antisymmetric on rows of width n once the keys mention all n columns. *)
From Coq Require Import List PeanoNat BinInt Lia Permutation Sorted.
Import ListNotations.
From LV Require Import Util.SortedFacts Exec.OrderLimit.

Section Abstract.
  Variable row : Type.
  Variable leb : row -> row -> bool.
  Hypothesis leb_total : forall a b, leb a b = true \/ leb b a = true.
  Hypothesis leb_trans : forall a b c, leb a b = true -> leb b c = true -> leb a c = true.

  Notation le := (le_of leb).

  Theorem sort_perm : forall l, Permutation (sort leb l) l.
  Proof. apply (srt_perm leb (insert leb)); reflexivity. Qed.

  Theorem sort_sorted : forall l, StronglySorted le (sort leb l).
  Proof. apply (srt_sorted leb (insert leb)); trivial; reflexivity. Qed.

  Theorem order_limit_sorted : forall lim l, StronglySorted le (order_limit leb lim l).
  Proof.
    intros [k|] l; simpl.
    - apply StronglySorted_firstn, sort_sorted.
    - apply sort_sorted.
  Qed.

  Theorem order_limit_length : forall k l, length (order_limit leb (Some k) l) = Nat.min k (length l).
  Proof.
    intros. simpl. rewrite firstn_length. erewrite Permutation_length; [reflexivity|apply sort_perm].
  Qed.

  Theorem order_limit_k_smallest : forall k l,
    exists rest, Permutation l (order_limit leb (Some k) l ++ rest) /\
                 forall x y, In x (order_limit leb (Some k) l) -> In y rest -> le x y.
  Proof.
    intros k l. exists (skipn k (sort leb l)). simpl. split.
    - rewrite firstn_skipn. symmetry. apply sort_perm.
    - apply StronglySorted_split, sort_sorted.
  Qed.

  (* LIMIT only truncates: a reader of a limited predicate sees a prefix of what the same predicate
     holds with a larger limit, in the same order *)
  Theorem order_limit_monotone : forall k k' l, k <= k' ->
    order_limit leb (Some k) l = firstn k (order_limit leb (Some k') l).
  Proof. intros k k' l H. simpl. rewrite firstn_firstn, (Nat.min_l k k' H). reflexivity. Qed.

  (* determinism: under an order that is antisymmetric on the rows at hand (predicate P, e.g.
     "has n columns") a sorted list is determined by its multiset *)
  Variable P : row -> Prop.
  Hypothesis leb_antisym : forall a b, P a -> P b -> leb a b = true -> leb b a = true -> a = b.

  Lemma sort_unique : forall l r, Forall P l ->
    StronglySorted le r -> Permutation r l -> r = sort leb l.
  Proof.
    intros l r HP. apply (srt_unique leb (insert leb)); trivial; try reflexivity.
    rewrite Forall_forall in HP. intros a b Ha Hb. apply leb_antisym; auto.
  Qed.

  Theorem order_limit_unique : forall l r k, Forall P l ->
    StronglySorted le r -> Permutation r l -> firstn k r = order_limit leb (Some k) l.
  Proof. intros l r k HP S Pm. simpl. f_equal. apply sort_unique; auto. Qed.

  Theorem order_limit_deterministic : forall lim l l', Forall P l ->
    Permutation l l' -> order_limit leb lim l = order_limit leb lim l'.
  Proof.
    intros lim l l' HP Pm. unfold order_limit.
    rewrite <- (sort_unique l (sort leb l')).
    - reflexivity.
    - exact HP.
    - apply sort_sorted.
    - rewrite sort_perm. symmetry. exact Pm.
  Qed.
End Abstract.

Lemma lex_total : forall keys a b, lex_leb keys a b = true \/ lex_leb keys b a = true.
Proof.
  induction keys as [|[c d] tl IH]; intros; simpl; auto.
  rewrite (Z.eqb_sym (col c b) (col c a)).
  destruct (Z.eqb (col c a) (col c b)) eqn:E; auto.
  apply Z.eqb_neq in E. destruct d; rewrite !Z.ltb_lt; lia.
Qed.

Lemma lex_trans : forall keys a b c,
  lex_leb keys a b = true -> lex_leb keys b c = true -> lex_leb keys a c = true.
Proof.
  induction keys as [|[k d] tl IH]; intros a b c; simpl; auto.
  destruct (Z.eqb (col k a) (col k b)) eqn:E1.
  - apply Z.eqb_eq in E1. rewrite E1. destruct (Z.eqb (col k b) (col k c)); eauto.
  - destruct (Z.eqb (col k b) (col k c)) eqn:E2.
    + apply Z.eqb_eq in E2. rewrite <- E2, E1. auto.
    + apply Z.eqb_neq in E1. apply Z.eqb_neq in E2.
      destruct d; rewrite ?Z.ltb_lt; intros;
        (destruct (Z.eqb (col k a) (col k c)) eqn:E3;
         [apply Z.eqb_eq in E3; lia | apply Z.ltb_lt; lia]).
Qed.

Lemma lex_antisym_keys : forall keys a b,
  lex_leb keys a b = true -> lex_leb keys b a = true ->
  forall k, In k keys -> col (fst k) a = col (fst k) b.
Proof.
  induction keys as [|[c d] tl IH]; intros a b H1 H2 k Hk; simpl in *. contradiction.
  rewrite (Z.eqb_sym (col c b) (col c a)) in H2.
  destruct (Z.eqb (col c a) (col c b)) eqn:E.
  - destruct Hk as [<-|Hk]. apply Z.eqb_eq; auto. eauto.
  - exfalso. destruct d; rewrite Z.ltb_lt in *; lia.
Qed.

Lemma lex_antisym : forall keys n, covers keys n = true ->
  forall a b, length a = n -> length b = n ->
  lex_leb keys a b = true -> lex_leb keys b a = true -> a = b.
Proof.
  intros keys n Hc a b Ha Hb H1 H2. apply nth_ext with (d := 0%Z) (d' := 0%Z). congruence.
  rewrite Ha. intros c Hlt. unfold covers in Hc. rewrite forallb_forall in Hc.
  specialize (Hc c). rewrite in_seq in Hc. specialize (Hc ltac:(lia)).
  apply existsb_exists in Hc. destruct Hc as [k [Hk Hkc]]. apply Nat.eqb_eq in Hkc. subst c.
  apply (lex_antisym_keys keys a b H1 H2 k Hk).
Qed.

(* Props/C18.v states its theorems about concrete rows with these two *)
Definition lex_le (keys : list key) (a b : zrow) : Prop := lex_leb keys a b = true.
Definition width (n : nat) (r : zrow) : Prop := length r = n.
