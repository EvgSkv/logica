(* C06 — the C++ and Python parsers agree.
   Nothing about two implementations is a theorem about one model: the agreement itself is
   decided per instance by props/c06.py (differential run, level "other").  What is proved, for
   all strings, is the lexical discipline that BOTH parsers implement (parse.py: Traverse /
   RemoveComments / Strip / SplitRaw; logica_parse.cpp: Traverser::Next / RemoveComments /
   Strip / SplitRaw follow it name for name) and to which both are held by the layout-variant
   part of the differential run.  Statements, each proved by `exact` of a lemma of the proof files;
   the example is evaluated in place. *)
From Coq Require Import List NArith.
Import ListNotations.
From LV Require Import Lex.Traverse Lex.TraverseProofs Lex.Split Lex.SplitProofs.

Theorem C06_common_block_comment : forall st body rest,
  code_state st = true -> no_close body = true ->
  ann (Run [] st) (ch_slash :: ch_star :: body ++ ch_star :: ch_slash :: rest) =
  repeat ASilent (length body + 4) ++ ann (Run [] st) rest.
Proof. exact block_comment_transparent. Qed.

Theorem C06_common_line_comment : forall st body rest,
  code_state st = true -> no_char ch_nl body = true ->
  ann (Run [] st) (ch_hash :: body ++ ch_nl :: rest) =
  repeat ASilent (S (length body)) ++ AOk st :: ann (Run [] st) rest.
Proof. exact line_comment_transparent. Qed.

Theorem C06_common_string_opaque : forall st body rest,
  code_state st = true -> no_char ch_dq body = true -> no_char ch_nl body = true ->
  not_triple body rest ->
  ann (Run [] st) (ch_dq :: body ++ ch_dq :: rest) =
  repeat (AOk (ch_dq :: st)) (S (length body)) ++ AOk st :: ann (Run [] st) rest.
Proof. exact string_opaque_dq. Qed.

Theorem C06_common_split_join : forall sep c0 tl0 s ps,
  sep = c0 :: tl0 -> ceq c0 ch_dq = false -> forallb plain tl0 = true ->
  split_raw sep s = SParts ps -> join sep (map txt ps) = s.
Proof. exact split_join. Qed.

Theorem C06_common_split_spans : forall sep s ps,
  split_raw sep s = SParts ps -> Forall (part_exact s) ps.
Proof. exact split_raw_spans. Qed.

Theorem C06_common_strip_parens : forall s, is_whole s = true -> strip (ch_lp :: s ++ [ch_rp]) = strip s.
Proof. exact strip_parens. Qed.

Example C06_ex_statements :
  split_raw [59%N] (map N.of_nat [80; 40; 34; 59; 34; 41; 59; 81; 40; 41]) =
  SParts [(0, 6, map N.of_nat [80; 40; 34; 59; 34; 41]); (7, 10, map N.of_nat [81; 40; 41])].
Proof. vm_compute. reflexivity. Qed.
