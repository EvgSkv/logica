(* C17 — grounded predicates are materialised faithfully and re-running is idempotent.
   Statements, proved by `exact` or instantiation of a lemma of the proof files; examples proved in place.
   Model: Exec/Ground.v —
     script_for main  = the grounded predicates whose "DROP TABLE IF EXISTS t; CREATE TABLE t AS q"
                        statement TranslateTableAttachedToFile appends while `main` is compiled;
     run_pred main s  = executing those statements against the persistent store s.
   Hypotheses (named in Exec/GroundTheorems.v):
     acyclic          predicates numbered in dependency order (the generator's programs are acyclic);
     reads_frontier   the query of p mentions only tables of grounded predicates p reaches through
                      non-grounded ones;
     deterministic    a query is a function of the tables it mentions;
     queries_correct  each single query returns the specified bag when the tables it mentions hold
                      theirs (C01's subject; validated per instance by props/c17.py).
   Tied to compiler/universe.py + SQLite by the histories of props/c17.py. *)
From Coq Require Import List Arith.
Import ListNotations.
From LV Require Import Exec.Ground Exec.GroundProofs Exec.GroundTheorems.

Section C17.
  Variable grounded : pred -> bool.
  Variable deps reads : pred -> list pred.
  Variable B : Type.
  Variable eval_q : pred -> store B -> B.
  Variable spec : pred -> B.
  Notation script_for := (script_for grounded deps).
  Notation run_pred := (run_pred grounded deps B eval_q).
  Notation run_history := (run_history grounded deps B eval_q).

  (* every CREATE comes after the CREATEs of the tables its query reads; nothing is written twice *)
  Theorem C17_exports_postorder :
    acyclic deps -> reads_frontier grounded deps reads ->
    forall main l1 d l2, script_for main = l1 ++ d :: l2 ->
    incl (reads d) l1 /\ ~ In d l1 /\ ~ In d l2.
  Proof. exact (e2e_postorder grounded deps reads). Qed.

  (* the model's recursion never runs out of fuel on acyclic programs *)
  Theorem C17_model_total :
    acyclic deps -> reads_frontier grounded deps reads ->
    forall main, ok (compile grounded deps (S main) main) = true.
  Proof. exact (e2e_in_fuel grounded deps reads). Qed.

  (* asking for P itself emits no statement for P, and everything P's own query reads is written *)
  Theorem C17_self_request_writes_nothing :
    acyclic deps -> reads_frontier grounded deps reads ->
    forall main, ~ In main (script_for main).
  Proof. exact (e2e_self_request grounded deps reads). Qed.

  Theorem C17_dependants_read_written_tables :
    acyclic deps -> reads_frontier grounded deps reads ->
    forall main, incl (reads main) (script_for main).
  Proof. exact (e2e_main_reads grounded deps reads). Qed.

  (* a run never fails, touches only the tables of its script (not the table of main), and leaves
     in every written table the value of its query on the final store *)
  Theorem C17_script_materialises :
    acyclic deps -> reads_frontier grounded deps reads -> deterministic reads B eval_q ->
    forall main s0, exists s, run_pred main s0 = Some s /\
      (forall t, ~ In t (script_for main) -> s t = s0 t) /\
      (forall t, In t (script_for main) -> s t = Some (eval_q t s)) /\
      s main = s0 main.
  Proof. exact (e2e_run grounded deps reads B eval_q). Qed.

  (* running again against the same file: same tables, same result *)
  Theorem C17_rerun_idempotent :
    acyclic deps -> reads_frontier grounded deps reads -> deterministic reads B eval_q ->
    forall main s0 s, run_pred main s0 = Some s ->
    exists s', run_pred main s = Some s' /\ (forall t, s' t = s t) /\
               result B eval_q main s' = result B eval_q main s.
  Proof. exact (e2e_rerun grounded deps reads B eval_q). Qed.

  (* the tables hold exactly the bags the predicates denote, and the answer is the denoted bag *)
  Theorem C17_faithful :
    acyclic deps -> reads_frontier grounded deps reads -> queries_correct reads B eval_q spec ->
    forall main s0 s, run_pred main s0 = Some s ->
    (forall t, In t (script_for main) -> s t = Some (spec t)) /\ result B eval_q main s = spec main.
  Proof. exact (e2e_faithful grounded deps reads B eval_q spec). Qed.

  (* any sequence of requests against one file that started clean (e.g. empty): never fails, no stale
     table is left behind, every table written at some point still holds the denoted bag at the end *)
  Theorem C17_histories :
    acyclic deps -> reads_frontier grounded deps reads -> deterministic reads B eval_q ->
    queries_correct reads B eval_q spec ->
    forall ps s0, clean B spec s0 ->
    exists s, run_history ps s0 = Some s /\ clean B spec s /\
      (forall t, present B s0 t -> present B s t) /\
      (forall p t, In p ps -> In t (script_for p) -> s t = Some (spec t)).
  Proof. exact (e2e_history grounded deps reads B eval_q spec). Qed.
End C17.

(* Non-vacuity: a concrete program satisfying every hypothesis.
   0 = D (facts), 1 = A grounded reads D, 2 = M (not grounded) reads A, 3 = Bee grounded reads M and A,
   4 = Q reads Bee and M.   Bags are numbers: spec p = 10 + p; the query of p adds up what it reads. *)
Definition ex_grounded (p : pred) : bool := match p with 1 | 3 => true | _ => false end.
Definition ex_deps (p : pred) : list pred :=
  match p with 1 => [0] | 2 => [1] | 3 => [2; 1] | 4 => [3; 2] | _ => [] end.
Definition ex_reads (p : pred) : list pred :=
  match p with 2 => [1] | 3 => [1] | 4 => [3; 1] | _ => [] end.
Definition ex_spec (p : pred) : nat := 10 + p.
Definition ex_eval (p : pred) (s : store nat) : nat :=
  10 + p + fold_right (fun t acc => match s t with Some v => (v - (10 + t)) + acc | None => 1 + acc end) 0 (ex_reads p).

Example ex_script : script_for ex_grounded ex_deps 4 = [1; 3] /\ script_for ex_grounded ex_deps 3 = [1]
  /\ script_for ex_grounded ex_deps 1 = [].
Proof. repeat split; reflexivity. Qed.

Example ex_acyclic : acyclic ex_deps.
Proof.
  intros p d H. destruct p as [|[|[|[|[|p]]]]]; simpl in H;
    repeat (destruct H as [<-|H]; [auto with arith|]); try contradiction.
Qed.

Example ex_frontier : reads_frontier ex_grounded ex_deps ex_reads.
Proof.
  intros p t H. destruct p as [|[|[|[|[|p]]]]]; simpl in H; try contradiction.
  - destruct H as [<-|[]]. exists 1. simpl. auto.
  - destruct H as [<-|[]]. exists 1. simpl. auto.
  - destruct H as [<-|[<-|[]]].
    + exists 3. simpl. auto.
    + exists 2. simpl. split; [auto|]. right. simpl. auto.
Qed.

Example ex_deterministic : deterministic ex_reads nat ex_eval.
Proof.
  intros d s s' H. unfold ex_eval. f_equal. revert H. generalize (ex_reads d) as l.
  induction l as [|t tl IH]; intros H; cbn [fold_right]; auto.
  rewrite (H t) by (left; auto). rewrite IH; auto. intros; apply H; right; auto.
Qed.

Example ex_correct : queries_correct ex_reads nat ex_eval ex_spec.
Proof.
  intros d s H. unfold ex_eval, ex_spec.
  assert (E : forall l, (forall t, In t l -> s t = Some (ex_spec t)) ->
    fold_right (fun t acc => match s t with Some v => (v - (10 + t)) + acc | None => 1 + acc end) 0 l = 0).
  { induction l as [|t tl IH]; intros Hl; cbn [fold_right]; auto.
    rewrite (Hl t) by (left; auto). unfold ex_spec. rewrite IH by (intros; apply Hl; right; auto).
    rewrite Nat.sub_diag. reflexivity. }
  rewrite E; auto.
Qed.

Example ex_run : exists s, run_pred ex_grounded ex_deps nat ex_eval 4 (fun _ => None) = Some s /\
  s 1 = Some 11 /\ s 3 = Some 13 /\ s 4 = None /\ result nat ex_eval 4 s = 14.
Proof. eexists. split. reflexivity. repeat split; reflexivity. Qed.
