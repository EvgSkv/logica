(* C14 — execution runs each statement after its inputs, the prescribed number of times.
   Statements, proved by `exact` or instantiation of a lemma of the proof files; examples proved in place.
   Model: Exec/Concertina.v (hand-written mirror of common/concertina_lib.py: Concertina), tied to the code by
   the correspondence run of props/c14.py.
   Hypotheses `wfb` / `iter_closedb` are the booleans the harness evaluates on every config it runs
   (and on every plan the real compiler produced).  `raised` is the stop-signal oracle: all theorems
   about `run` hold for every oracle.  Not proved here (checked per instance by the harness through the
   Spec `valid_trace`): the exact stop rule (an action runs again iff fewer than reps runs and no poll has
   seen its signal — the theorems give the bounds 1..max(reps,1), = max(reps,1) without signal, and that every
   round is part of the previous one); "several predicates at once" is checked per instance on SQLite. *)
From Coq Require Import List Arith Permutation.
Import ListNotations.
From LV Require Import Exec.Concertina Exec.ConcertinaProofs Exec.ConcertinaRounds.

Theorem C14_sort_terminates :
  forall cfg its, sort_actions cfg its <> OutOfFuel.
Proof. exact sort_terminates. Qed.

Theorem C14_sort_perm :
  forall cfg its l, wfb cfg its = true -> sort_actions cfg its = Ok l -> Permutation l (names cfg).
Proof. exact sort_perm. Qed.

(* the sorted queue consists of non-iterated actions and whole iteration blocks (the members that are
   actions, contiguous, in declared order) *)
Theorem C14_sort_contiguous :
  forall cfg its l, wfb cfg its = true -> sort_actions cfg its = Ok l ->
  segmented its (is_action cfg) l.
Proof. exact sort_contiguous. Qed.

Theorem C14_sort_topological :
  forall cfg its l, wfb cfg its = true -> iter_closedb cfg its = true ->
  sort_actions cfg its = Ok l ->
  forall l1 x l2, l = l1 ++ x :: l2 -> forall r, In r (own_requires cfg x) -> In r l1.
Proof. exact sort_topological. Qed.

(* without iter_closedb the statement is false at the library API (replayed on the real Concertina
   by props/c14.py; known finding) *)
Theorem C14_sort_topological_refuted :
  exists cfg its l, wfb cfg its = true /\ sort_actions cfg its = Ok l /\ ~ topo cfg l /\
    trace (run its (fun _ _ => false) (run_bound its l) (init l)) = [0; 1; 0; 1; 2; 3].
Proof. exact sort_topological_refuted. Qed.

Theorem C14_run_terminates :
  forall its raised l fuel, run_bound its l <= fuel ->
  q (run its raised fuel (init l)) = [] /\ length (trace (run its raised fuel (init l))) <= run_bound its l.
Proof. exact run_terminates. Qed.

Theorem C14_run_once :
  forall its raised l0 fuel a, NoDup l0 -> run_bound its l0 <= fuel -> In a l0 -> iter_of its a = None ->
  count a (trace (run its raised fuel (init l0))) = 1.
Proof. exact run_once. Qed.

Theorem C14_run_counts :
  forall its raised l0 fuel a it, NoDup l0 -> run_bound its l0 <= fuel -> In a l0 -> iter_of its a = Some it ->
  1 <= count a (trace (run its raised fuel (init l0))) <= Nat.max (i_reps it) 1.
Proof. exact run_counts. Qed.

Theorem C14_run_counts_no_signal :
  forall its raised l0 fuel a it, NoDup l0 -> run_bound its l0 <= fuel -> In a l0 -> iter_of its a = Some it ->
  quiet raised it ->
  count a (trace (run its raised fuel (init l0))) = Nat.max (i_reps it) 1.
Proof. exact run_counts_quiet. Qed.

Theorem C14_run_deps :
  forall its raised l0 cfg, NoDup l0 -> topo cfg l0 ->
  forall fuel, topo cfg (trace (run its raised fuel (init l0))).
Proof. exact run_deps. Qed.

(* once a poll has seen the stop signal (it sits in wrench_in_gears), every member of an iteration with that
   signal runs at most once more, in any continuation of the run; and a poll that finds it raised records it *)
Theorem C14_run_after_signal :
  forall its raised l0 f1 f2 a it sg,
  NoDup l0 -> iter_of its a = Some it -> i_stop it = Some sg ->
  In sg (wrench (run its raised f1 (init l0))) ->
  count a (trace (run its raised f2 (run its raised f1 (init l0)))) <=
  S (count a (trace (run its raised f1 (init l0)))).
Proof. exact run_after_signal. Qed.

(* an iterated action runs fewer than max(reps,1) times only if a poll has seen its stop signal *)
Theorem C14_run_counts_unseen :
  forall its raised l0 fuel a it,
  NoDup l0 -> run_bound its l0 <= fuel -> In a l0 -> iter_of its a = Some it ->
  (forall sg, i_stop it = Some sg -> ~ In sg (wrench (run its raised fuel (init l0)))) ->
  count a (trace (run its raised fuel (init l0))) = Nat.max (i_reps it) 1.
Proof. exact run_counts_unseen. Qed.

Theorem C14_poll_records :
  forall its raised s s' a q' it sg,
  step its raised s = Some s' -> q s = a :: q' -> iter_of its a = Some it -> i_stop it = Some sg ->
  S (cnt s a) < i_reps it -> raised (trace s ++ [a]) sg = true -> In sg (wrench s').
Proof. exact poll_records. Qed.

(* members of an iteration run in declared order, round by round (every round an order-preserving part of the
   previous one, at most max(reps,1) rounds), contiguously, in the order of the queue — for every oracle *)
Theorem C14_run_rounds :
  forall its raised present, NoDup (map i_id its) -> members_disjoint its ->
  forall l fuel, segmented its present l -> NoDup l -> (forall x, In x l -> present x = true) ->
  run_bound its l <= fuel -> plan_trace its present l (trace (run its raised fuel (init l))).
Proof. exact run_rounds. Qed.

Theorem C14_execute_rounds :
  forall cfg its raised t, wfb cfg its = true -> execute cfg its raised = Some t ->
  exists l, Permutation l (names cfg) /\ segmented its (is_action cfg) l /\ plan_trace its (is_action cfg) l t.
Proof. exact execute_rounds. Qed.

Theorem C14_execute_correct :
  forall cfg its raised t,
  wfb cfg its = true -> iter_closedb cfg its = true -> execute cfg its raised = Some t ->
  (forall a, In a t <-> In a (names cfg)) /\
  (forall a, In a (names cfg) ->
     match iter_of its a with
     | None => count a t = 1
     | Some it => 1 <= count a t <= Nat.max (i_reps it) 1 /\
                  (quiet raised it -> count a t = Nat.max (i_reps it) 1)
     end) /\
  topo cfg t /\
  (exists l, Permutation l (names cfg) /\ length t <= run_bound its l).
Proof. exact execute_correct. Qed.

(* non-vacuity: a plan shaped like a compiled deep recursion (ifr0; [ifr1; ifr2] x 3; P; Q) and a stop signal *)
Definition ex_cfg : list action :=
  [mkA 4 [3]; mkA 0 []; mkA 1 [0]; mkA 2 [1]; mkA 3 [2]; mkA 5 [3; 4]].
Definition ex_its : list iteration := [mkI 0 [1; 2] 3 (Some 0) false].
Example ex_hyps : wfb ex_cfg ex_its = true /\ iter_closedb ex_cfg ex_its = true.
Proof. split; reflexivity. Qed.
Example ex_sorted : sort_actions ex_cfg ex_its = Ok [0; 1; 2; 3; 4; 5].
Proof. vm_compute. reflexivity. Qed.
Example ex_run_quiet :
  execute ex_cfg ex_its (fun _ _ => false) = Some [0; 1; 2; 1; 2; 1; 2; 3; 4; 5].
Proof. vm_compute. reflexivity. Qed.
(* the signal is seen by the poll after the 3rd call (member 2, first round): 2 stops, 1 was re-queued and runs once more *)
Example ex_run_signal :
  execute ex_cfg ex_its (fun tr _ => 3 <=? length tr) = Some [0; 1; 2; 1; 3; 4; 5].
Proof. vm_compute. reflexivity. Qed.
Example ex_valid :
  valid_trace ex_cfg ex_its (fun tr _ => 3 <=? length tr) [0; 1; 2; 1; 3; 4; 5] = true /\
  valid_trace ex_cfg ex_its (fun tr _ => 3 <=? length tr) [0; 1; 2; 1; 2; 3; 4; 5] = false /\
  valid_trace ex_cfg ex_its (fun _ _ => false) [0; 1; 1; 2; 2; 1; 2; 3; 4; 5] = false.
Proof. vm_compute. auto. Qed.
Example ex_stuck : sort_actions [mkA 0 [1]; mkA 1 [0]] [] = AssertFail.
Proof. vm_compute. reflexivity. Qed.
