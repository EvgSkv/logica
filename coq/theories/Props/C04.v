(* C04 — functor application is predicate substitution.
   Statements, proved by `exact` or instantiation of a lemma of the proof files; examples proved in place.
   Model: Functors/Program.v (tied to compiler/functors.py by the correspondence run of props/c04.py).

   Reading.  A program is a list of rules (head, used predicates, opaque body).  [gsem] is the
   meaning of the group of rules of one predicate as a function of the meanings of the predicates
   they mention; it is universally quantified and only assumed to be local and to commute with
   renaming (the two premises repeated in each theorem; they are Section hypotheses in
   Functors/Functor.v, there is no axiom).  [is_model P E]: E is the meaning of P.
   [is_model_ov P s base Es]: Es is the meaning of "P in which each a in dom s is redefined as
   s(a)", the values s(a) being read in [base]. *)
From Coq Require Import List NArith.
Import ListNotations.
From LV Require Import Functors.Program Functors.Functor Functors.Exec.

Definition local {rel} (gsem : list rbody -> (pred -> rel) -> rel) : Prop :=
  forall bs e1 e2, (forall b u, In b bs -> In u (fst b) -> e1 u = e2 u) -> gsem bs e1 = gsem bs e2.
Definition renaming {rel} (gsem : list rbody -> (pred -> rel) -> rel) : Prop :=
  forall bs f e, gsem (map (ren_body f) bs) e = gsem bs (fun u => e (f u)).

(* N := F(A1: B1, ...).  s = the bindings, m = bindings + (F |-> N) + (intermediate |-> clone),
   cl = the predicates whose rules are copied, X = the added rules.  If the added rules define only
   new names (fresh), are the renamed copies of the rules of cl (copied), and every predicate used
   by a copied rule is an argument, or copied too, or mapped to an old predicate that already has
   the required meaning (unaffected predicate, or clone shared through the cache), then every copy
   -- in particular N = m(F) -- means the original with the arguments redefined. *)
Theorem C04_functor_is_substitution :
  forall rel (ext : pred -> rel) gsem, local gsem -> renaming gsem ->
  forall rk P, ranked rk P ->
  forall (s m : ren) (cl : list pred) (X : program) (E E' Es : pred -> rel),
  is_model rel ext gsem P E -> is_model rel ext gsem (P ++ X) E' -> is_model_ov rel ext gsem P s E Es ->
  (forall h, In h (heads X) -> rules_of P h = []) ->
  (forall q, In q cl ->
     lookup s q = None /\ bodies P q <> [] /\
     bodies X (app m q) = map (ren_body (app m)) (bodies P q)) ->
  (forall q r u, In q cl -> In r P -> head r = q -> In u (uses r) ->
     (exists b, lookup s u = Some b /\ app m u = b /\ old P X b) \/
     In u cl \/
     (old P X (app m u) /\ E (app m u) = Es u)) ->
  forall q, In q cl -> E' (app m q) = Es q.
Proof. exact clone_sound. Qed.

(* F, its arguments and every other predicate keep their meaning: adding rules X changes nothing
   for a predicate that X does not define and that does not depend on anything X defines. *)
Theorem C04_conservative :
  forall rel (ext : pred -> rel) gsem, local gsem ->
  forall rk P, ranked rk P ->
  forall X E E', is_model rel ext gsem P E -> is_model rel ext gsem (P ++ X) E' ->
  forall p, old P X p -> E' p = E p.
Proof. exact conservative. Qed.

(* The cache key is sound: the meaning of p under a redefinition depends only on the bindings of
   the predicates p depends on (what CallKey keeps), so two applications whose relevant bindings
   coincide may share the clone of p. *)
Theorem C04_cache_key_sound :
  forall rel (ext : pred -> rel) gsem, local gsem ->
  forall rk P, ranked rk P ->
  forall s1 b1 E1 s2 b2 E2,
  is_model_ov rel ext gsem P s1 b1 E1 -> is_model_ov rel ext gsem P s2 b2 E2 ->
  forall p,
  (forall x, x = p \/ Reach P p x -> option_map b1 (lookup s1 x) = option_map b2 (lookup s2 x)) ->
  E1 p = E2 p.
Proof. exact ov_relevant. Qed.

(* A predicate that depends on no argument is not copied and keeps its meaning in the
   substituted program. *)
Theorem C04_unaffected_not_copied :
  forall rel (ext : pred -> rel) gsem, local gsem ->
  forall rk P, ranked rk P ->
  forall s base E Es, is_model rel ext gsem P E -> is_model_ov rel ext gsem P s base Es ->
  forall p, lookup s p = None -> (forall a, lookup s a <> None -> ~ Reach P p a) -> Es p = E p.
Proof. exact ov_unaffected. Qed.

(* "the meaning" is well defined for acyclic programs: it exists (fuelled evaluation, independent
   of the out-of-fuel value) and is unique. *)
Theorem C04_meaning_unique :
  forall rel (ext : pred -> rel) gsem, local gsem ->
  forall rk P, ranked rk P ->
  forall E1 E2, is_model rel ext gsem P E1 -> is_model rel ext gsem P E2 -> forall p, E1 p = E2 p.
Proof. exact model_unique. Qed.

Theorem C04_meaning_exists :
  forall rel (ext : pred -> rel) gsem, local gsem ->
  forall rk P, ranked rk P ->
  forall d, is_model rel ext gsem P (fun p => den rel ext gsem d (S (rk p)) P p).
Proof. exact model_exists. Qed.

(* Non-vacuity.  The free (symbolic) semantics satisfies both assumed laws ... *)
Example ex_laws_satisfiable : local free_gsem /\ renaming free_gsem.
Proof. split; [exact free_local | exact free_rename]. Qed.

(* ... and on  F(x) :- M(x), C(x).  M(x) :- A(x).  N1 := F(A: B).  N2 := F(A: B, C: A).
   (A=0 B=1 C=2 M=3 F=4 N1=5 N2=6; clone X_f<n> = 10 + 4*X + n) the model of MakeAll clones M once
   (M_f1 = 23), shares it between the two applications, and both results verify symbolically. *)
Definition ex_P : program :=
  [mkRule 4 [3; 2] 0; mkRule 3 [0] 1; mkRule 0 [] 2; mkRule 1 [] 3; mkRule 2 [] 4]%N.
Definition ex_ms : list make := [(5, 4, [(0, 1)]); (6, 4, [(0, 1); (2, 0)])]%N.
Example ex_make_all :
  run_flat 10 4 [] ex_P ex_ms [] =
  ([1; 2; 1; 1] ++
   concat (map flat_rule (ex_P ++ [mkRule 5 [23; 2] 0; mkRule 23 [1] 1; mkRule 6 [23; 0] 0])))%N.
Proof. vm_compute. reflexivity. Qed.
