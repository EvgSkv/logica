(* C12 — imports isolate modules and mean the same as one flattened program.
   Statements, proved by `exact` or instantiation of a lemma of the proof files; examples proved in place.
   Model: Lex/Imports.v (the import driver of parser_py/parse.py ParseFile/ParseImport in the variants
   Py = parse.py, Cpp = logica_parse.cpp, Full = proposed repair of the prefix loop), tied to the code by
   props/c12.py.
   All theorems hold for every mode, every file system `fs : path -> option file`, every fuel. *)
From Coq Require Import List NArith.
Import ListNotations.
From LV Require Import Lex.Imports Lex.ImportsProofs Lex.ImportsDriver.

(* A successful run: each file reachable through import statements is in the final state exactly
   once, none lies on a cycle, distinct files have distinct prefixes, every entry holds the rules of
   its file renamed by the file's renaming steps. *)
Theorem C12_each_file_once_acyclic_distinct_prefixes :
  forall m fs fuel mainf st pfm,
  parse_main_state m fs fuel mainf = Ok (st, pfm) ->
  NoDup (keys st) /\
  (forall p, In p (keys st) <-> from_imports fs (f_imports mainf) p) /\
  (forall p, In p (keys st) -> ~ reach fs p p) /\
  (forall p1 p2 pf1 pf2, In (p1, Some pf1) st -> In (p2, Some pf2) st ->
     pf_prefix pf1 = pf_prefix pf2 -> p1 = p2) /\
  (forall p x, In (p, x) st -> exists pf f, x = Some pf /\ fs p = Some f /\ is_main p = false /\
     pf_rules pf = apply_renames (file_renames st (pf_prefix pf) false f) (f_rules f)) /\
  pf_rules pfm = apply_renames (file_renames st [] true mainf) (f_rules mainf).
Proof. exact main_state_facts. Qed.

(* The result is main's rules followed by the rules of the entries; no predicate defined by an
   imported file is also defined by main (override check). *)
Theorem C12_result_is_concatenation :
  forall m fs fuel mainf R,
  parse_main m fs fuel mainf = Ok R ->
  exists st pfm, parse_main_state m fs fuel mainf = Ok (st, pfm) /\
    R = pf_rules pfm ++ rules_of_state st /\
    (forall p pf n, In (p, Some pf) st -> In n (defined (pf_rules pf)) -> is_at n = false ->
       ~ In n (defined (pf_rules pfm))).
Proof. exact main_result. Qed.

(* Flattening: when no renaming step captures the result of an earlier one, the result is the
   concatenation of every file's rules under one simultaneous substitution per file (own
   predicates -> prefix ++ name, imported names / aliases -> exporter's prefix ++ name). *)
Theorem C12_imports_are_flattening :
  forall m fs fuel mainf R,
  parse_main m fs fuel mainf = Ok R ->
  exists st pfm, parse_main_state m fs fuel mainf = Ok (st, pfm) /\
    (capture_free fs st mainf -> R = flat_spec fs st mainf).
Proof. exact flatten_equiv. Qed.

(* A reachable file on an import cycle: never accepted. *)
Theorem C12_cycle_rejected :
  forall m fs fuel mainf p,
  from_imports fs (f_imports mainf) p -> reach fs p p ->
  forall R, parse_main m fs fuel mainf <> Ok R.
Proof. exact cycle_rejected. Qed.

(* Accepted import statements name a predicate that the exporter defines or makes, and the
   imported name occurs in the importer at the moment it is resolved. *)
Theorem C12_imports_defined_and_used :
  forall m st imps rs rs',
  apply_imports m st imps rs = Ok rs' ->
  forall k i, nth_error imps k = Some i ->
  exists pf, done st (i_file i) pf /\
    (In (pf_prefix pf ++ i_pred i) (defined (pf_rules pf) ++ made (pf_rules pf)) \/
     (m = Cpp /\ In (i_pred i) (defined (pf_rules pf) ++ made (pf_rules pf)))) /\
    count_all (imported_as i) (apply_renames (import_renames st (firstn k imps)) rs) <> 0.
Proof. exact apply_imports_checks. Qed.

(* The prefix loop never returns a prefix that an already parsed file has. *)
Theorem C12_prefix_unique :
  forall m existing p q, file_prefix m existing p = Some q -> ~ In q existing.
Proof. exact file_prefix_fresh. Qed.

(* Lexical side condition (lexical_ok: no capital letter in any path component, base name starts
   with a lower-case letter): the loop's prefixes have exactly one capital letter ... *)
Theorem C12_prefix_shape :
  forall m existing p q,
  lexical_ok p = true -> file_prefix m existing p = Some q -> count_upper q = 1.
Proof. exact file_prefix_one_upper. Qed.

(* ... and prefixing names that start with a capital letter is then injective on (prefix, name). *)
Theorem C12_prefix_injective :
  forall p1 p2 n1 n2,
  count_upper p1 = count_upper p2 -> starts_upper n1 = true -> starts_upper n2 = true ->
  p1 ++ n1 = p2 ++ n2 -> p1 = p2 /\ n1 = n2.
Proof. exact prefix_injective. Qed.

(* Sequential RenamePredicate steps = one simultaneous substitution when nothing is captured;
   for the file's own predicates the iteration order of the set is then irrelevant. *)
Theorem C12_renaming_simultaneous :
  forall L rs, nocap L = true -> apply_renames L rs = map (subst_rule (first_match L)) rs.
Proof. exact apply_renames_simultaneous. Qed.

Theorem C12_own_renaming_order_irrelevant :
  forall pre os os' rs,
  (forall x, In x os <-> In x os') ->
  (forall o o', In o os -> In o' os -> pre ++ o <> o') ->
  apply_renames (map (fun o => (o, pre ++ o)) os) rs = apply_renames (map (fun o => (o, pre ++ o)) os') rs.
Proof. exact own_order_irrelevant. Qed.

(* parse.py as it is: a collision of capitalised base names can never be resolved. *)
Theorem C12_py_collision_refuted :
  forall existing p,
  file_prefix Py existing p =
  if mem (capitalize (last p []) ++ [underscore]) existing then None
  else Some (capitalize (last p []) ++ [underscore]).
Proof. exact py_loop_no_extension. Qed.

Open Scope N_scope.
Definition s_util : name := [117; 116; 105; 108].
Definition s_d1 : name := [100; 49].
Definition s_d2 : name := [100; 50].
Definition s_x : name := [120].
Definition nF : name := [70].
Definition nG : name := [71].
Definition nH : name := [72; 101; 108; 112; 101; 114].   (* Helper *)
Definition nM : name := [77].
Definition mod_file (exported : name) : file :=
  mkFile [] [mkRule nH None []; mkRule exported None [nH]].
(* import <a>.util.F; import <b>.util.G; M(x) :- F(x), G(x) *)
Definition main_of (a b : path) : file :=
  mkFile [mkImport a nF None; mkImport b nG None] [mkRule nM None [nF; nG]].
Definition fs2 (a b : path) (p : path) : option file :=
  if path_eqb p a then Some (mod_file nF) else if path_eqb p b then Some (mod_file nG) else None.

(* two components, equal base names: neither parser accepts, the repaired loop does *)
Example ex_collision_py :
  parse_main Py (fs2 [s_d1; s_util] [s_d2; s_util]) 5 (main_of [s_d1; s_util] [s_d2; s_util]) = Err ECollision.
Proof. vm_compute. reflexivity. Qed.
Example ex_collision_cpp2 :
  parse_main Cpp (fs2 [s_d1; s_util] [s_d2; s_util]) 5 (main_of [s_d1; s_util] [s_d2; s_util]) = Err ECollision.
Proof. vm_compute. reflexivity. Qed.
Example ex_collision_full :
  parse_main Full (fs2 [s_d1; s_util] [s_d2; s_util]) 5 (main_of [s_d1; s_util] [s_d2; s_util]) =
  Ok [mkRule nM None [[85; 116; 105; 108; 95; 70]; [100; 50; 85; 116; 105; 108; 95; 71]];
      mkRule [85; 116; 105; 108; 95; 72; 101; 108; 112; 101; 114] None [];
      mkRule [85; 116; 105; 108; 95; 70] None [[85; 116; 105; 108; 95; 72; 101; 108; 112; 101; 114]];
      mkRule [100; 50; 85; 116; 105; 108; 95; 72; 101; 108; 112; 101; 114] None [];
      mkRule [100; 50; 85; 116; 105; 108; 95; 71] None [[100; 50; 85; 116; 105; 108; 95; 72; 101; 108; 112; 101; 114]]].
Proof. vm_compute. reflexivity. Qed.
(* three components: the C++ loop succeeds, parse.py still fails: the parsers disagree *)
Example ex_collision_cpp3 :
  exists R, parse_main Cpp (fs2 [s_x; s_d1; s_util] [s_x; s_d2; s_util]) 5
              (main_of [s_x; s_d1; s_util] [s_x; s_d2; s_util]) = Ok R.
Proof. eexists. vm_compute. reflexivity. Qed.
Example ex_collision_py3 :
  parse_main Py (fs2 [s_x; s_d1; s_util] [s_x; s_d2; s_util]) 5
    (main_of [s_x; s_d1; s_util] [s_x; s_d2; s_util]) = Err ECollision.
Proof. vm_compute. reflexivity. Qed.

(* capture: file `util` defines Q and Util_Q; the sequential renaming merges them *)
Definition nQ : name := [81].
Definition nUQ : name := [85; 116; 105; 108; 95; 81].
Example ex_capture :
  apply_renames (own_renames [85; 116; 105; 108; 95] [mkRule nQ None []; mkRule nUQ None []])
                [mkRule nQ None []; mkRule nUQ None []] =
  [mkRule [85; 116; 105; 108; 95; 85; 116; 105; 108; 95; 81] None [];
   mkRule [85; 116; 105; 108; 95; 85; 116; 105; 108; 95; 81] None []]
  /\ nocap (own_renames [85; 116; 105; 108; 95] [mkRule nQ None []; mkRule nUQ None []]) = false.
Proof. vm_compute. split; reflexivity. Qed.

(* a cycle a -> b -> a below main: rejected as a cycle *)
Definition s_a : name := [97].
Definition s_b : name := [98].
Definition fs_cyc (p : path) : option file :=
  if path_eqb p [s_a] then Some (mkFile [mkImport [s_b] nG None] [mkRule nF None [nG]])
  else if path_eqb p [s_b] then Some (mkFile [mkImport [s_a] nF None] [mkRule nG None [nF]])
  else None.
Example ex_cycle :
  parse_main Py fs_cyc 5 (mkFile [mkImport [s_a] nF None] [mkRule nM None [nF]]) = Err ECycle.
Proof. vm_compute. reflexivity. Qed.
Example ex_lexical : lexical_ok [s_x; s_d1; s_util] = true.
Proof. reflexivity. Qed.
