(* C10 — string literals and flag values are data, never SQL.
   Statements, proved by `exact` or instantiation of a lemma of the proof files; examples proved in place.
   emit_of kind_<D> is the emitter that translators/strlit.py reads from the CURRENT source of
   QL.StrLiteral (coq/gen/StrLitGen.v); lex_* are the hand written Spec lexers (Lex/StrLit.v).
   lex (emit s ++ rest) = Some (s, rest) says both: the value read back is s character for
   character, and the literal is exactly one token (what follows it is untouched, whatever s is). *)
From Coq Require Import List NArith.
Import ListNotations.
From LV Require Import Lex.StrLit Lex.StrLitProofs Lex.StrLitEmit Lex.StrLitDialects.
From LVGen Require Import StrLitGen.
Open Scope N_scope.

Theorem C10_roundtrip_SqLite : forall s rest, no_quote_start 39 rest ->
  lex_std (emit_of kind_SqLite s ++ rest) = Some (s, rest).
Proof. exact roundtrip_SqLite. Qed.

Theorem C10_roundtrip_PostgreSQL : forall s rest, no_quote_start 39 rest ->
  lex_std (emit_of kind_PostgreSQL s ++ rest) = Some (s, rest).
Proof. exact roundtrip_PostgreSQL. Qed.

Theorem C10_roundtrip_Presto : forall s rest, no_quote_start 39 rest ->
  lex_std (emit_of kind_Presto s ++ rest) = Some (s, rest).
Proof. exact roundtrip_Presto. Qed.

Theorem C10_roundtrip_Trino : forall s rest, no_quote_start 39 rest ->
  lex_std (emit_of kind_Trino s ++ rest) = Some (s, rest).
Proof. exact roundtrip_Trino. Qed.

Theorem C10_roundtrip_DuckDB : forall s rest, no_quote_start 39 rest ->
  lex_estr (emit_of kind_DuckDB s ++ rest) = Some (s, rest).
Proof. exact roundtrip_DuckDB. Qed.

Theorem C10_roundtrip_BigQuery : forall s rest,
  lex_bq (emit_of kind_BigQuery s ++ rest) = Some (s, rest).
Proof. exact roundtrip_BigQuery. Qed.

(* weaker than the property: strings containing a form feed are excluded (see the _refuted below) *)
Theorem C10_roundtrip_Databricks_partial : forall s rest, ~ In 12 s ->
  lex_dbx (emit_of kind_Databricks s ++ rest) = Some (s, rest).
Proof. exact roundtrip_Databricks_partial. Qed.

Theorem C10_Databricks_formfeed_refuted :
  exists s rest, no_quote_start 34 rest /\
    lex_dbx (emit_of kind_Databricks s ++ rest) <> Some (s, rest) /\
    lex_dbx (emit_of kind_Databricks s ++ rest) = Some ([102], rest).
Proof. exact Databricks_formfeed_refuted. Qed.

Theorem C10_roundtrip_ClickHouse : forall s rest, no_quote_start 39 rest ->
  lex_ch (emit_of kind_ClickHouse s ++ rest) = Some (s, rest).
Proof. exact roundtrip_ClickHouse. Qed.

(* quote doubling alone (without the backslash escape of /repo fix 81d1802) does not round trip with
   ClickHouse's lexer and lets a literal end inside the following SQL *)
Theorem C10_ClickHouse_quote_doubling_alone_refuted :
  exists s rest, no_quote_start 39 rest /\
    lex_ch (emit_of quote_doubling s ++ rest) <> Some (s, rest).
Proof. exact ClickHouse_quote_doubling_alone_refuted. Qed.

Theorem C10_ClickHouse_quote_doubling_alone_changes_structure :
  let s := [97; 92] in
  let rest := [32; 79; 82; 32; 39; 120; 39; 32; 61; 32; 39; 120; 39] in
  no_quote_start 39 rest /\
  lex_ch (emit_of quote_doubling s ++ rest) =
    Some ([97; 39; 32; 79; 82; 32], [120; 39; 32; 61; 32; 39; 120; 39]).
Proof. exact ClickHouse_quote_doubling_alone_changes_structure. Qed.

(* two emitters that round trip for all strings (same Spec lexers): proposed_ClickHouse is what
   QL.StrLiteral emits for ClickHouse (kind_ClickHouse, /repo fix 81d1802); proposed_Databricks is not in the code.
   ClickHouse:  "'%s'" % s.replace('\\', '\\\\').replace("'", "''")
   Databricks:  '<dq>%s<dq>' % s with  \ -> \\ , <dq> -> \<dq> , LF -> \n , CR -> \r , TAB -> \t   *)
Theorem C10_proposed_patch_ClickHouse : forall s rest, no_quote_start 39 rest ->
  lex_ch (emit_of proposed_ClickHouse s ++ rest) = Some (s, rest).
Proof. exact proposed_ClickHouse_roundtrip. Qed.

Theorem C10_proposed_patch_Databricks : forall s rest,
  lex_dbx (emit_of proposed_Databricks s ++ rest) = Some (s, rest).
Proof. exact proposed_Databricks_roundtrip. Qed.

(* every dialect of the generated table (finite: the table) is covered *)
Theorem C10_every_dialect_has_a_lexer :
  forallb (fun p => match lexer_for (fst p) with Some _ => true | None => false end) dialect_kinds = true.
Proof. exact all_dialects_have_lexer. Qed.

Theorem C10_roundtrip_every_dialect : forall name k lx,
  In (name, k) dialect_kinds -> lexer_for name = Some lx ->
  forall s rest, safe_for name s -> no_quote_start (quote_of lx) rest ->
  run_lexer lx (emit_of k s ++ rest) = Some (s, rest).
Proof. exact roundtrip_all. Qed.

Theorem C10_flag_value_roundtrip : forall name k lx flags f lit,
  In (name, k) dialect_kinds -> lexer_for name = Some lx ->
  flag_literal k flags f = Some lit ->
  exists v, lookup f flags = Some v /\
    forall rest, safe_for name v -> no_quote_start (quote_of lx) rest ->
    run_lexer lx (lit ++ rest) = Some (v, rest).
Proof. exact flag_value_roundtrip. Qed.

(* user > reset > default (rev: for a key given twice the last binding counts, as in dict.update) *)
Theorem C10_flags_precedence : forall defaults resets user m f,
  build_flags defaults resets user = Some m ->
  lookup f m =
  first_some (lookup f (rev user)) (first_some (lookup f (rev resets)) (lookup f (rev defaults))).
Proof. exact flags_precedence. Qed.

Theorem C10_flags_undefined_rejected : forall defaults resets user,
  build_flags defaults resets user = None <->
  exists k v, In (k, v) user /\ lookup k defaults = None /\ k <> system_flag.
Proof. exact flags_undefined_rejected. Qed.

(* ${flag} expansion: the function is total (structural recursion on the bound 100) *)
Theorem C10_expansion_result_is_fixed_point : forall flags sql r,
  use_flags flags sql = Some r -> round_flags flags r = r.
Proof. exact use_flags_fixed_point. Qed.

Theorem C10_expansion_bounded : forall flags sql r,
  use_flags flags sql = Some r ->
  exists k, (k <= 100)%nat /\ r = Nat.iter k (round_flags flags) sql.
Proof. exact use_flags_bounded. Qed.

Theorem C10_expansion_error_only_if_not_converged : forall flags sql,
  use_flags flags sql = None ->
  forall k, (k < 100)%nat ->
    Nat.iter (S k) (round_flags flags) sql <> Nat.iter k (round_flags flags) sql.
Proof. exact use_flags_error_only_if_not_converged. Qed.

(* only ${flag} of a defined flag is expanded: text in which no such pattern occurs is unchanged *)
Theorem C10_expansion_only_of_defined_patterns : forall flags sql,
  (forall f v, In (f, v) flags -> has_sub (flag_pat f) sql = false) ->
  use_flags flags sql = Some sql.
Proof. exact use_flags_identity. Qed.

Theorem C10_expansion_needs_dollar : forall flags sql, ~ In 36 sql -> use_flags flags sql = Some sql.
Proof. exact use_flags_no_dollar. Qed.

Theorem C10_dollar_params_need_dollar : forall s, ~ In 36 s -> dollar_params s = [].
Proof. exact dollar_params_no_dollar. Qed.

(* that the result contains no ${f} with f defined is false of the loop as written: *)
Theorem C10_expansion_removes_defined_flags_refuted :
  use_flags cyc_flags (flag_pat [97]) = Some (flag_pat [97]) /\
  lookup [97] cyc_flags = Some (flag_pat [98]) /\ flag_pat [98] <> flag_pat [97].
Proof. exact use_flags_cycle_undetected. Qed.

(* ParseString: the two raw literal forms give the text between the quotes *)
Theorem C10_parse_double_quoted : forall s, ~ In 34 s -> parse_string_raw (34 :: s ++ [34]) = Some s.
Proof. exact parse_dq. Qed.

Theorem C10_parse_triple_quoted : forall s, has_sub q3 s = false ->
  parse_string_raw (q3 ++ s ++ q3) = Some s.
Proof. exact parse_triple. Qed.

Example ex_sqlite : emit_of kind_SqLite [97; 39; 59; 45; 45] = [39; 97; 39; 39; 59; 45; 45; 39].
Proof. reflexivity. Qed.
Example ex_sqlite_lex : lex_std ([39; 97; 39; 39; 59; 45; 45; 39] ++ [59]) = Some ([97; 39; 59; 45; 45], [59]).
Proof. reflexivity. Qed.
Example ex_duckdb : emit_of kind_DuckDB [92; 39; 9; 10] = [69; 39; 92; 92; 39; 39; 92; 116; 92; 110; 39].
Proof. reflexivity. Qed.
Example ex_json : emit_of kind_BigQuery [34; 92; 10; 1; 233] = [34; 92; 34; 92; 92; 92; 110; 92; 117; 48; 48; 48; 49; 233; 34].
Proof. reflexivity. Qed.
Example ex_safe : safe_for n_ClickHouse [97; 39] /\ ~ safe_for n_ClickHouse [92].
Proof.
  split.
  - split; [intros _ [H|[H|[]]]; discriminate|intros H; discriminate].
  - intros [H _]. apply H; [reflexivity|left; reflexivity].
Qed.
Example ex_precedence :
  build_flags [([97], [49]); ([98], [50]); ([99], [51])] [([98], [52]); ([99], [53])] [([99], [54])]
  = Some [([97], [49]); ([98], [52]); ([99], [54])].
Proof. reflexivity. Qed.
Example ex_expand :
  use_flags [([97], [120; 36; 123; 98; 125]); ([98], [121])] [36; 123; 97; 125; 33] = Some [120; 121; 33].
Proof. reflexivity. Qed.
Example ex_recursive : use_flags [([97], [36; 123; 97; 125; 120])] [36; 123; 97; 125] = None.
Proof. vm_compute. reflexivity. Qed.
