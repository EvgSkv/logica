(* C07 — results do not depend on the textual order or naming used in a program.
   Statements, proved by `exact` or instantiation of a lemma of the proof files; examples proved in place.
   About the reference evaluator (the oracle every permuted / renamed program text is
   compared with on SQLite by props/c07.py): the order of rules and of disjuncts only permutes the
   bag; Sum, Min, Max, Count, List and Set over integers, and ArgMin / ArgMax without ties, do not depend on
   arrival order; null inputs never matter.  About the models of the elimination loop and of SortUnnestings
   (further down): two successful visiting orders agree, the FROM order ignores the conjunct order.
   Order independence of the COMPILER as a whole (whether ElliminateInternalVariables succeeds can depend on
   the order) is decided per instance by the metamorphic run, not proved. *)
From Coq Require Import List BinInt Permutation.
Import ListNotations.
From LV Require Import Core.Syntax Core.Eval Core.EvalProofs Core.AggProofs.

Theorem C07_rule_order :
  forall P D n k rs rs', plain rs -> Permutation rs rs' ->
  match eval_pdef P D {| p_name := n; p_kind := k; p_rules := rs |},
        eval_pdef P D {| p_name := n; p_kind := k; p_rules := rs' |} with
  | Ok a, Ok b => Permutation a b
  | Fail _, Fail _ => True
  | _, _ => False
  end.
Proof. exact eval_pdef_rule_order. Qed.

Theorem C07_disjunct_order :
  forall P D h dis ps ps', Permutation ps ps' ->
  match eval_rule P D {| r_head := h; r_distinct := dis; r_body := POr ps |},
        eval_rule P D {| r_head := h; r_distinct := dis; r_body := POr ps' |} with
  | Ok a, Ok b => Permutation a b
  | Fail _, Fail _ => True
  | _, _ => False
  end.
Proof. exact eval_rule_disjunct_order. Qed.

Theorem C07_sum_arrival_order :
  forall vals vals', all_int (filter (fun v => negb (is_null v)) vals) = true -> Permutation vals vals' ->
  aggregate ASum vals = aggregate ASum vals'.
Proof. exact sum_arrival_order. Qed.

Theorem C07_min_max_arrival_order :
  forall op vals vals', op = AMin \/ op = AMax ->
  all_int (filter (fun v => negb (is_null v)) vals) = true -> Permutation vals vals' ->
  aggregate op vals = aggregate op vals'.
Proof. exact min_max_arrival_order. Qed.

Theorem C07_count_list_set_arrival_order :
  forall op vals vals', op = ACount \/ op = AList \/ op = ASet ->
  all_int (filter (fun v => negb (is_null v)) vals) = true -> Permutation vals vals' ->
  aggregate op vals = aggregate op vals'.
Proof. exact count_list_set_arrival_order. Qed.

(* ArgMin / ArgMax: without ties among the (integer) values the chosen argument is order independent;
   the choice among tied candidates is outside the property. *)
Theorem C07_argmin_argmax_arrival_order_without_ties :
  forall want_lt vals vals',
  all_int (map snd (arg_pairs vals)) = true ->
  NoDup (map (fun p => zof (snd p)) (arg_pairs vals)) ->
  Permutation vals vals' ->
  arg_ext want_lt vals = arg_ext want_lt vals'.
Proof. exact argmin_argmax_arrival_order. Qed.

Theorem C07_null_inputs_never_matter :
  forall op vals, documented op = true ->
  aggregate op vals = aggregate op (filter (fun v => negb (is_null v)) vals).
Proof. exact aggregate_ignores_null. Qed.

Example ex_perm : Permutation [PConj (CCond (EInt 1)); PConj (CCond (EInt 0))]
                              [PConj (CCond (EInt 0)); PConj (CCond (EInt 1))].
Proof. apply perm_swap. Qed.

(* order-driven elimination of internal variables (model Core/Elim.v, tied to rule_translate by props/c01.py):
   when the loop succeeds on two orderings of the same unifications and constraints, the two final
   SELECT/WHERE structures accept the same row choices with the same head values (non-null joins).
   Whether the loop succeeds may depend on the order - that is a known finding of this property. *)
From LV Require Import Core.Elim Core.ElimProofs.

Theorem C07_elimination_orders_agree :
  forall app is_x E s t s' t',
  same_structure s t ->
  eliminate is_x E s = Some (inr s') -> eliminate is_x E t = Some (inr t') ->
  forall rho, solves app rho s' ->
  (forall sg t1 l r, represents app E t t1 -> In (l, r) (unifs t1) -> peval app sg l <> VNull) ->
  solves app rho t' /\ output app rho t' = output app rho s'.
Proof. exact elimination_orders_agree. Qed.

(* two orderings of the same unifications { c == x, x == y } are same_structure; an ordering on which the
   loop fails needs a combine: that witness is replayed on the implementation (known_findings.json, C07). *)
Example ex_same_structure :
  same_structure {| sel := [(0, PVar 1)]; unifs := [(PVar 1, PVar 0); (PVar 0, PVar 1000)]; cons := [] |}
                 {| sel := [(0, PVar 1)]; unifs := [(PVar 0, PVar 1000); (PVar 1, PVar 0)]; cons := [] |}.
Proof.
  (* holds whatever the number of the extract variable: abstracted first, so that the unary numeral is
     not copied into every subgoal and implicit argument *)
  generalize 1000. intros x. split; [reflexivity|]. split; [apply perm_swap | apply perm_nil].
Qed.

(* the order of the UNNEST items of the emitted FROM list (model Core/Unnest.v of SortUnnestings, tied by
   props/unnesttie.py) does not depend on the order in which the `in` conjuncts were written *)
From LV Require Import Core.Unnest Core.UnnestOrder.

Theorem C07_from_order_independent_of_conjunct_order :
  forall us us', NoDup (map fst us) -> Permutation us us' -> sort_unnestings us = sort_unnestings us'.
Proof. exact sort_order_independent. Qed.
