(* C05 — type checking: accepts well-typed, rejects clashes, matches run-time values.
   Statements, proved by `exact` or instantiation of a lemma of the proof files; examples proved in place.

   Model: Types/Typing.v.  Two layers:
   * the constraint view of inference: a program yields constraints (node, t); the checker infers
     meet_all of the constraints of each node (C16's meet) and rejects when some node reads back a
     bad type.  Constraint GENERATION (infer.py ActMinding*, ActUnifying, WalkInitializingVariables,
     the shared-reference heap) is not modelled: the harness emits the constraints of each generated
     program (trusted) and compares verdict and inferred column types with the real checker.
   * a typed core language with values and an evaluator, for "values inhabit the inferred type".
   Below, (a) marks the theorems on accepting well-typed programs, (b) those on rejecting clashes, (c) those on
   run-time values.  PARTIAL: (a) and (b) are about constraint lists, not about infer.py's generation of them;
   order independence "with shared variables" of the reference heap is checked per instance only. *)
From Coq Require Import List Bool BinInt NArith Permutation.
Import ListNotations.
From LV Require Import Types.TypeAlgebra Types.TypeLaws Types.Typing Types.TypingProofs.

(* (a) a ground typing satisfying every constraint is accepted and is an instance of what is inferred *)
Theorem C05_infer_complete_ground_partial :
  forall cs (gm : N -> gty), cs_wf cs = true ->
  (forall n t, In (n, t) cs -> inst t (gm n) = true) ->
  rejects cs = false /\ forall n, inst (infer cs n) (gm n) = true.
Proof. exact infer_complete_ground. Qed.

(* (a) "exactly that signature": a node one of whose constraints is its ground type itself is inferred
   clash free, admits that ground type and nothing the ground type does not admit *)
Theorem C05_infer_exact_when_pinned_partial :
  forall cs (gm : N -> gty) n, cs_wf cs = true ->
  (forall m t, In (m, t) cs -> inst t (gm m) = true) ->
  In (n, embed (gm n)) cs ->
  has_bad (infer cs n) = false /\ inst (infer cs n) (gm n) = true /\
  forall g, inst (infer cs n) g = true -> inst (embed (gm n)) g = true.
Proof. exact infer_exact_when_pinned. Qed.

(* (b) two constraints of one node without a common ground instance: rejected for every order *)
Theorem C05_clash_rejected_any_order_partial :
  forall cs n a b, cs_wf cs = true -> In (n, a) cs -> In (n, b) cs ->
  (forall g, inst a g && inst b g = false) ->
  forall cs', Permutation cs cs' -> rejects cs' = true.
Proof. exact clash_rejected_any_order. Qed.

(* (b) verdict and inferred types never depend on the order of the constraints *)
Theorem C05_verdict_order_independent_partial :
  forall cs cs', cs_wf cs = true -> Permutation cs cs' ->
  rejects cs = rejects cs' /\ forall n, same (infer cs n) (infer cs' n).
Proof. exact verdict_order_independent. Qed.

(* (a)+(b) the verdict is exactly "no assignment of ground types satisfies all constraints" *)
Theorem C05_rejects_iff_unsatisfiable_partial :
  forall cs, cs_wf cs = true ->
  (rejects cs = false <-> exists gm : N -> gty, forall n t, In (n, t) cs -> inst t (gm n) = true).
Proof. exact rejects_iff_unsatisfiable. Qed.

(* (c) a well-typed core expression evaluates, if at all, to a value of its type *)
Theorem C05_typing_sound :
  forall F Sg Gm rho, fun_ok F Sg -> env_ok rho Gm ->
  forall e g v, type_of Sg Gm e = Some g -> eval F rho e = Some v -> has_type v g = true.
Proof. exact (fun F Sg Gm rho HF Henv e g v Ht Hv => typing_sound F Sg Gm rho HF Henv e v g Hv Ht). Qed.

(* (c) every row produced by the head of a checked rule has the declared column types *)
Theorem C05_rule_head_sound :
  forall F Sg Gm rho, fun_ok F Sg -> env_ok rho Gm ->
  forall Rs r, check_rule Sg Rs Gm r = true ->
  forall row, map_opt (eval F rho) (r_head r) = Some row ->
  exists ts, Rs (r_pred r) = Some ts /\ Forall2 (fun v g => has_type v g = true) row ts.
Proof. exact rule_head_sound. Qed.

(* (c) a variable bound by a satisfied body atom over a well-typed database holds a value of its type *)
Theorem C05_atom_binds :
  forall F Sg Rs Gm D rho q args,
  db_ok D Rs -> sat_conj F D rho (CAtom q args) -> check_conj Sg Rs Gm (CAtom q args) = true ->
  forall i x, nth_error args i = Some (EVar x) ->
  exists g v, Gm x = Some g /\ rho x = Some v /\ has_type v g = true.
Proof. exact (fun F Sg Rs Gm D rho q args HD Hs C i x => atom_binds F Sg Rs Gm D rho q args HD Hs C i (EVar x)). Qed.

Theorem C05_in_binds :
  forall F Sg Rs Gm D rho x l,
  (forall g v, type_of Sg Gm l = Some g -> eval F rho l = Some v -> has_type v g = true) ->
  sat_conj F D rho (CIn (EVar x) l) -> check_conj Sg Rs Gm (CIn (EVar x) l) = true ->
  exists g v, Gm x = Some g /\ rho x = Some v /\ has_type v g = true.
Proof. exact (fun F Sg Rs Gm D rho x l => in_binds F Sg Rs Gm D rho (EVar x) l). Qed.

Theorem C05_eq_binds :
  forall F Sg Rs Gm D rho x e,
  (forall g v, type_of Sg Gm e = Some g -> eval F rho e = Some v -> has_type v g = true) ->
  sat_conj F D rho (CEq (EVar x) e) -> check_conj Sg Rs Gm (CEq (EVar x) e) = true ->
  exists g v, Gm x = Some g /\ rho x = Some v /\ has_type v g = true.
Proof. exact (fun F Sg Rs Gm D rho x e => eq_binds F Sg Rs Gm D rho (EVar x) e). Qed.

(* non-vacuity: instances that meet the hypotheses of the theorems above *)
Definition ex_cs : list constr :=
  [(0, TAtom ANum); (0, TSingular); (1, TList TSingular); (1, TList (TAtom ANum));
   (2, TRec false [(FName 0, TAtom AStr)]); (2, TRec true [(FName 0, TAny); (FName 1, TAtom ANum)])]%N.
Definition ex_gm (n : N) : gty :=
  match n with
  | 0%N => GAtom ANum
  | 1%N => GList (GAtom ANum)
  | _ => GRec [(FName 0, GAtom AStr); (FName 1, GAtom ANum)]
  end.
Example ex_satisfiable :
  cs_wf ex_cs = true /\ forallb (fun c => inst (snd c) (ex_gm (fst c))) ex_cs = true /\ rejects ex_cs = false /\
  infer ex_cs 2%N = TRec true [(FName 0, TAtom AStr); (FName 1, TAtom ANum)].
Proof. repeat split; reflexivity. Qed.
Example ex_clash :
  rejects (ex_cs ++ [(0%N, TAtom AStr)]) = true /\ rejects ((0%N, TAtom AStr) :: ex_cs) = true /\
  (forall g, inst (TAtom ANum) g && inst (TAtom AStr) g = false).
Proof. repeat split; try reflexivity. intros [[]| |]; reflexivity. Qed.

Definition ex_F (q : nat) (vs : list val) : option val :=
  match vs with [VNum z] => Some (VStr [Z.to_nat z]) | _ => None end.
Definition ex_Sg : sigma := fun q => Some ([GAtom ANum], GAtom AStr).
Definition ex_Gm (x : nat) : option gty := match x with 0 => Some (GAtom ANum) | 1 => Some (GList (GAtom ANum)) | _ => None end.
Definition ex_rho (x : nat) : option val :=
  match x with 0 => Some (VNum 3) | 1 => Some (VList [VNum 1; VNum 3]) | _ => None end.
Definition ex_e : expr :=
  ERec [(FName 0, EBin OAdd (EVar 0) (ENum 1)); (FName 1, EList (ECall 7 [EVar 0]) [EStr [5]]);
        (FName 2, EIn (EVar 0) (EVar 1))].
Example ex_typed :
  type_of ex_Sg ex_Gm ex_e =
    Some (GRec [(FName 0, GAtom ANum); (FName 1, GList (GAtom AStr)); (FName 2, GAtom ABool)]) /\
  eval ex_F ex_rho ex_e =
    Some (VRec [(FName 0, VNum 4); (FName 1, VList [VStr [3%nat]; VStr [5%nat]]); (FName 2, VBool true)]) /\
  type_of ex_Sg ex_Gm (EBin OAdd (EVar 0) (EStr [])) = None.
Proof. repeat split; reflexivity. Qed.
Example ex_hyps : fun_ok ex_F ex_Sg /\ env_ok ex_rho ex_Gm.
Proof.
  split.
  - intros q targs tres vs v [= <- <-] _ Hv. unfold ex_F in Hv.
    destruct vs as [|[] [|]]; try discriminate Hv. injection Hv as <-. reflexivity.
  - intros [|[|x]] g v [= <-] [= <-]; reflexivity.
Qed.
