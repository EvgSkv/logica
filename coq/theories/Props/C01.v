(* C01 — compiled SQL returns exactly the multiset the program denotes.
   Statements, proved by `exact` or instantiation of a lemma of the proof files; examples proved in place.
   The theorems are about the reference evaluator Core/Eval.v (the documented bag
   semantics the SQLite results are compared with on every run by props/c01.py): disjunction and
   several rules ADD multiplicities, the distributive law behind the parser's DNF rewrite holds for
   bags, rule order is immaterial.  Of the compiler, only the path of one conjunctive rule is proved (further
   down: the models of ExtractRuleStructure and of variable elimination, the FROM / WHERE / SELECT reading);
   the compiler as a whole is tied per instance (rows on SQLite vs. eval_query), not proved. *)
From Coq Require Import List PeanoNat BinInt Permutation.
Import ListNotations.
From LV Require Import Core.Syntax Core.Eval Core.EvalProofs.

Theorem C01_disjunction_adds_multiplicities :
  forall P D h dis b1 b2,
  eval_rule P D {| r_head := h; r_distinct := dis; r_body := POr [b1; b2] |} =
  bind (eval_rule P D {| r_head := h; r_distinct := dis; r_body := b1 |}) (fun r1 =>
  bind (eval_rule P D {| r_head := h; r_distinct := dis; r_body := b2 |}) (fun r2 => Ok (r1 ++ r2))).
Proof. exact eval_rule_disjunction. Qed.

Theorem C01_rules_add_multiplicities :
  forall P D n k rs1 rs2, plain rs1 -> plain rs2 ->
  eval_pdef P D {| p_name := n; p_kind := k; p_rules := rs1 ++ rs2 |} =
  bind (eval_pdef P D {| p_name := n; p_kind := k; p_rules := rs1 |}) (fun a =>
  bind (eval_pdef P D {| p_name := n; p_kind := k; p_rules := rs2 |}) (fun b => Ok (a ++ b))).
Proof. exact eval_pdef_rules_add. Qed.

Theorem C01_dnf_distributes :
  forall p q1 q2,
  Permutation (dnf (PAnd [p; POr [q1; q2]])) (dnf (POr [PAnd [p; q1]; PAnd [p; q2]])).
Proof. exact dnf_distributes. Qed.

Theorem C01_rule_order_immaterial :
  forall P D n k rs rs', plain rs -> Permutation rs rs' ->
  match eval_pdef P D {| p_name := n; p_kind := k; p_rules := rs |},
        eval_pdef P D {| p_name := n; p_kind := k; p_rules := rs' |} with
  | Ok a, Ok b => Permutation a b
  | Fail _, Fail _ => True
  | _, _ => False
  end.
Proof. exact eval_pdef_rule_order. Qed.

(* Non-vacuity: the programs of docs/learn/logica.md "Multiset Semantics" evaluate to the documented bags. *)
Definition fact (v : list nat) : rule :=
  {| r_head := [(0, HExpr (EStr v))]; r_distinct := false; r_body := PAnd [] |}.
Definition apple := [97; 112]%nat. Definition banana := [98; 97]%nat. Definition orange := [111; 114]%nat.
Definition doc_program : program :=
  [ {| p_name := 0; p_kind := KTable; p_rules := [fact apple; fact banana] |};          (* MyFruit *)
    {| p_name := 1; p_kind := KTable; p_rules := [fact apple; fact orange] |};          (* YourFruit *)
    {| p_name := 2; p_kind := KTable;                                                    (* OurFruit(x) :- MyFruit(x) | YourFruit(x) *)
       p_rules := [ {| r_head := [(0, HExpr (EVar 0))]; r_distinct := false;
                       r_body := POr [PConj (CAtom 0 [(0, EVar 0)]); PConj (CAtom 1 [(0, EVar 0)])] |} ] |};
    {| p_name := 3; p_kind := KTable;                                                    (* Both(x) :- MyFruit(x), YourFruit(x) *)
       p_rules := [ {| r_head := [(0, HExpr (EVar 0))]; r_distinct := false;
                       r_body := PAnd [PConj (CAtom 0 [(0, EVar 0)]); PConj (CAtom 1 [(0, EVar 0)])] |} ] |} ].
Example doc_disjunction :
  eval_query doc_program [] 2 =
  Ok [[(0, VStr apple)]; [(0, VStr banana)]; [(0, VStr apple)]; [(0, VStr orange)]].
Proof. vm_compute. reflexivity. Qed.
Example doc_conjunction : eval_query doc_program [] 3 = Ok [[(0, VStr apple)]].
Proof. vm_compute. reflexivity. Qed.
Example plain_holds : plain (p_rules (nth 2 doc_program {| p_name := 0; p_kind := KTable; p_rules := [] |})).
Proof. intros r [E|[]]. subst. split; reflexivity. Qed.

(* The compiler's variable elimination (model Core/Elim.v, tied to
   RuleStructure.ElliminateInternalVariables + UnificationsToConstraints by the elimination tie of props/c01.py):
   when it succeeds, the final SELECT / WHERE has the solutions of the extracted rule structure, row choice by
   row choice, with the same head values (from a solution to the WHERE: when the remaining equalities compare
   non-null values) - in whatever order the unifications stand in the list, which is the order of visiting. *)
From LV Require Import Core.Elim Core.ElimProofs.

Theorem C01_variable_elimination_sound :
  forall app is_x E s s',
  eliminate is_x E s = Some (inr s') ->
  exists s1,
    represents app E s s1 /\ internal_vars E s1 = [] /\ sel s' = sel s1 /\
    (forall sg, solves app sg s' <-> where_holds app sg s1).
Proof. exact eliminate_sound. Qed.

Theorem C01_where_equalities_imply_unifications :
  forall app sg s, where_holds app sg s -> solves app sg s.
Proof. exact where_is_unification. Qed.

Theorem C01_unifications_are_where_equalities_when_not_null :
  forall app sg s, solves app sg s ->
  (forall l r, In (l, r) (unifs s) -> peval app sg l <> VNull) -> where_holds app sg s.
Proof. exact unification_is_where_when_not_null. Qed.

(* non-vacuity: Q(y) :- T(x), y == x + 1  (x_0 = T.col0 extracted; select y with its extract variable x_1) *)
Definition ex_rs : rs :=
  {| sel := [(0, PVar 1)];
     unifs := [(PVar 1, PVar 1001); (PVar 1000, PVar 0); (PVar 1, PBin OAdd (PVar 0) (PLit (VInt 1)))];
     cons := [] |}.
Example ex_eliminate :
  eliminate (fun v => Nat.leb 1000 v) [1000] ex_rs =
  Some (inr {| sel := [(0, PBin OAdd (PVar 1000) (PLit (VInt 1)))]; unifs := []; cons := [] |}).
Proof. vm_compute. reflexivity. Qed.
Example ex_eliminate_rejects :   (* Q(y) :- T(x): y cannot be determined *)
  eliminate (fun v => Nat.leb 1000 v) [1000] {| sel := [(0, PVar 1)]; unifs := [(PVar 1, PVar 1001); (PVar 1000, PVar 0)]; cons := [] |}
  = Some (inl [1001]).
Proof. vm_compute. reflexivity. Qed.

Theorem C01_where_and_select_right_for_every_row_choice :
  forall app is_x E s s', eliminate is_x E s = Some (inr s') ->
  forall rho : var -> val,
  (solves app rho s' ->
     exists sg, (forall x, In x E -> sg x = rho x) /\ solves app sg s /\ output app sg s = output app rho s') /\
  (forall sg, (forall x, In x E -> sg x = rho x) -> solves app sg s ->
     (forall s1 l r, represents app E s s1 -> In (l, r) (unifs s1) -> peval app sg l <> VNull) ->
     solves app rho s' /\ output app rho s' = output app sg s).
Proof. exact eliminate_row_choice. Qed.

(* The compile path of one conjunctive rule: ExtractRuleStructure (model Core/Extract.v, tied
   structure-for-structure to rule_translate.ExtractRuleStructure by props/c01.py), variable elimination,
   and the FROM / WHERE / SELECT reading of the result.  SQL emits one row per row choice of the FROM product
   that passes WHERE, so these two theorems are the bag equality for a single rule:
   multiplicities multiply over the atoms of a conjunction. *)
From LV Require Import Core.Extract Core.ExtractProofs.

Theorem C01_compiled_rule_emits_only_derived_rows :
  forall app is_x r final rho out,
  compiled is_x r final -> wf_choice (x_cols (extract r)) rho ->
  sql_row app (x_cols (extract r)) final rho = Some out ->
  exists tau, derives app tau rho r /\ head_row app tau r = out.
Proof. exact compile_sound. Qed.

Theorem C01_compiled_rule_emits_every_derived_row :
  forall app is_x r final rho tau,
  compiled is_x r final -> cells_ok tau (x_cols (extract r)) rho ->
  (forall l r0, In (l, r0) (fst (extract_head (k_head r) 0)) -> Elim.peval app tau l = Elim.peval app tau r0) ->
  derives app tau rho r ->
  (forall s1 l r0, represents app (map fst (x_cols (extract r))) (x_rs (extract r)) s1 ->
     In (l, r0) (unifs s1) -> Elim.peval app tau l <> VNull) ->
  sql_row app (x_cols (extract r)) final rho = Some (head_row app tau r).
Proof. exact compile_complete. Qed.

(* The head row is a function of the row choice: two derivations for the same rows of the FROM product give the
   same head row, so one row choice contributes exactly one row to the bag (no double counting by valuations). *)
Theorem C01_head_row_is_a_function_of_the_row_choice :
  forall app is_x r final rho tau1 tau2,
  compiled is_x r final ->
  (forall tau, tau = tau1 \/ tau = tau2 ->
     cells_ok tau (x_cols (extract r)) rho /\
     (forall l r0, In (l, r0) (fst (extract_head (k_head r) 0)) -> Elim.peval app tau l = Elim.peval app tau r0) /\
     derives app tau rho r /\
     (forall s1 l r0, represents app (map fst (x_cols (extract r))) (x_rs (extract r)) s1 ->
        In (l, r0) (unifs s1) -> Elim.peval app tau l <> VNull)) ->
  head_row app tau1 r = head_row app tau2 r.
Proof. exact head_row_determined_by_row_choice. Qed.

Theorem C01_compiled_rule_row_is_exactly_the_derived_row :
  forall app is_x r final rho tau,
  compiled is_x r final -> wf_choice (x_cols (extract r)) rho ->
  cells_ok tau (x_cols (extract r)) rho ->
  (forall l r0, In (l, r0) (fst (extract_head (k_head r) 0)) -> Elim.peval app tau l = Elim.peval app tau r0) ->
  derives app tau rho r ->
  (forall s1 l r0, represents app (map fst (x_cols (extract r))) (x_rs (extract r)) s1 ->
     In (l, r0) (unifs s1) -> Elim.peval app tau l <> VNull) ->
  exists out tau', sql_row app (x_cols (extract r)) final rho = Some out /\
     out = head_row app tau r /\ derives app tau' rho r /\ head_row app tau' r = out.
Proof. exact compile_exact. Qed.

(* non-vacuity: Q(y, x) :- T(x, z), z == 2, y == x + 1   over T = {(1,2), (5,3)} *)
Definition ex_rule : crule :=
  {| k_head := [(0, PVar 1); (1, PVar 0)];
     k_body := [KAtom 7 [(0, PVar 0); (1, PVar 2)]; KUnify (PVar 2) (PLit (VInt 2));
                KUnify (PVar 1) (PBin OAdd (PVar 0) (PLit (VInt 1)))] |}.
Definition ex_final : rs :=
  {| sel := [(0, PBin OAdd (PVar 1002) (PLit (VInt 1))); (1, PVar 1002)]; unifs := [];
     cons := [PBin OEq (PVar 1003) (PLit (VInt 2))] |}.
Example ex_compiled : compiled (fun v => Nat.leb 1000 v) ex_rule ex_final.
Proof. vm_compute. reflexivity. Qed.
Example ex_sql_rows :
  sql_row (fun _ _ => VNull) (x_cols (extract ex_rule)) ex_final [[(0, VInt 1); (1, VInt 2)]] = Some [(0, VInt 2); (1, VInt 1)] /\
  sql_row (fun _ _ => VNull) (x_cols (extract ex_rule)) ex_final [[(0, VInt 5); (1, VInt 3)]] = None.
Proof. split; vm_compute; reflexivity. Qed.
