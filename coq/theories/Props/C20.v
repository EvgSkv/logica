(* C20 — built-in functions and aggregates on SQLite compute their documented meaning.
   Statements, proved by `exact` or instantiation of a lemma of the proof files; examples proved in place.
   Model: Udf/ArgMinMax.v (ArgMin/ArgMax step/finalize, heapq), Udf/Aggregates.v (other UDFs),
   Udf/BuiltinSpec.v (Spec of the SQL-template built-ins: the model IS the spec there, no theorem).
   Tie: props/c20.py drives the Python classes/functions of common/sqlite3_logica.py directly and
   the whole pipeline on SQLite, and compares inside Coq (Udf/UdfCheck.v, BuiltinSpec.judge_op, judge_agg).

   The ArgMin theorems hold for EVERY pair of heap operations meeting [heap_contract] (what the
   code uses of heapq) and every total order of values / args; ArgMax is the instance at the
   flipped orders (argmax_cpy = argmin_cpy (flip vle) (flip gle)). *)
From Coq Require Import List PeanoNat BinInt Permutation.
Import ListNotations.
From LV Require Import Udf.ArgMinMax Udf.ArgMinMaxProofs Udf.Aggregates Udf.AggregatesProofs
  Udf.BuiltinSpec Udf.HeapProofs.

(* For every arrival sequence and K >= 1 (values of one kind): no exception; min(K,n) rows are
   kept; kept and discarded rows split the input and every kept value <= every discarded value. *)
Theorem C20_argmin_keeps_k_best :
  forall V G (vle : V -> V -> bool) (gle : G -> G -> bool) kind hfy hrep,
  total_order vle -> total_order gle -> heap_contract vle gle hfy hrep ->
  forall K l, (1 <= K)%Z -> same_kind V G kind l ->
  exists st D, run vle kind hfy hrep (with_limit (Some K) l) = Ok st /\
    Permutation l (st ++ D) /\
    (forall d m, In d D -> In m st -> vle (fst m) (fst d) = true) /\
    length st = Nat.min (Z.to_nat K) (length l).
Proof.
  exact (fun V G vle gle kind hfy hrep Hv _ => argmin_split V G vle gle kind hfy hrep Hv).
Qed.

(* the values of the result are the K smallest values of the input bag, ascending *)
Theorem C20_argmin_values_are_k_smallest :
  forall V G (vle : V -> V -> bool) (gle : G -> G -> bool) kind hfy hrep,
  total_order vle -> total_order gle -> heap_contract vle gle hfy hrep ->
  forall K l, (1 <= K)%Z -> same_kind V G kind l ->
  exists st, run vle kind hfy hrep (with_limit (Some K) l) = Ok st /\
    map fst (isort (ple vle gle) st) = firstn (Z.to_nat K) (isort vle (map fst l)).
Proof. exact argmin_values_k_smallest. Qed.

(* pairwise distinct values: the output is exactly the args of the K smallest, in value order *)
Theorem C20_argmin_distinct_values_exact :
  forall V G (vle : V -> V -> bool) (gle : G -> G -> bool) kind hfy hrep,
  total_order vle -> total_order gle -> heap_contract vle gle hfy hrep ->
  forall K l, (1 <= K)%Z -> same_kind V G kind l -> NoDup (map fst l) ->
  agg vle gle kind hfy hrep (Some K) l = Ok (map snd (firstn (Z.to_nat K) (isort (ple vle gle) l))).
Proof. exact argmin_distinct_exact. Qed.

(* arrival order: result values never depend on it; with distinct values nothing does; a kept row
   strictly better than another kept row is kept under every arrival order (tie class only) *)
Theorem C20_argmin_arrival_order :
  forall V G (vle : V -> V -> bool) (gle : G -> G -> bool) kind hfy hrep,
  total_order vle -> total_order gle -> heap_contract vle gle hfy hrep ->
  forall K l l', (1 <= K)%Z -> same_kind V G kind l -> Permutation l l' ->
  exists st st', run vle kind hfy hrep (with_limit (Some K) l) = Ok st /\
    run vle kind hfy hrep (with_limit (Some K) l') = Ok st' /\
    map fst (isort (ple vle gle) st) = map fst (isort (ple vle gle) st') /\
    (NoDup (map fst l) -> finalize vle gle st = finalize vle gle st') /\
    (forall x m, In x st -> In m st -> vlt vle (fst x) (fst m) = true -> In x st').
Proof. exact argmin_perm. Qed.

(* ArgMax (min-heap, `result[0][0] < value`, reversed(sorted)) read off the same theorems at the
   flipped orders: the K largest values, descending *)
Theorem C20_argmax_values_are_k_largest :
  forall V G (vle : V -> V -> bool) (gle : G -> G -> bool) kind hfy hrep,
  total_order vle -> total_order gle -> heap_contract (flip vle) (flip gle) hfy hrep ->
  forall K l, (1 <= K)%Z -> same_kind V G kind l ->
  exists st, run (flip vle) kind hfy hrep (with_limit (Some K) l) = Ok st /\
    map fst (isort (ple (flip vle) (flip gle)) st) =
    firstn (Z.to_nat K) (isort (flip vle) (map fst l)).
Proof.
  exact (fun V G vle gle kind hfy hrep Hv Hg =>
           argmin_values_k_smallest V G (flip vle) (flip gle) kind hfy hrep
             (flip_total_order vle Hv) (flip_total_order gle Hg)).
Qed.

(* limit None (used by Array=): the output is the args sorted by (value, arg) *)
Theorem C20_argmin_unlimited_is_sort :
  forall V G (vle : V -> V -> bool) (gle : G -> G -> bool) kind hfy hrep l,
  (forall x y, In x l -> In y l -> kind (fst x) = kind (fst y)) ->
  agg vle gle kind hfy hrep None l = Ok (map snd (isort (ple vle gle) l)).
Proof. exact argmin_unlimited_is_sort. Qed.

(* the model of CPython's heapq (_siftup_max/_siftdown_max/_heapify_max/_heapreplace_max on
   arrays) meets the contract, hence all of the above hold for argmin_cpy / argmax_cpy *)
Theorem C20_cpython_heap_meets_contract :
  forall V G (vle : V -> V -> bool) (gle : G -> G -> bool),
  total_order vle -> total_order gle ->
  heap_contract vle gle (cpy_heapify_max (ple vle gle)) (cpy_heapreplace_max (ple vle gle)).
Proof. exact @cpy_contract. Qed.

(* ... in particular, for the concrete models tied to the code (CPython heap; ArgMax = flipped) *)
Theorem C20_argmin_cpython_distinct_values_exact :
  forall V G (vle : V -> V -> bool) (gle : G -> G -> bool) kind,
  total_order vle -> total_order gle ->
  forall K l, (1 <= K)%Z -> same_kind V G kind l -> NoDup (map fst l) ->
  argmin_cpy vle gle kind (Some K) l = Ok (map snd (firstn (Z.to_nat K) (isort (ple vle gle) l))).
Proof.
  exact (fun V G vle gle kind Hv Hg =>
           argmin_distinct_exact V G vle gle kind _ _ Hv Hg (cpy_contract vle gle Hv Hg)).
Qed.

Theorem C20_argmax_cpython_distinct_values_exact :
  forall V G (vle : V -> V -> bool) (gle : G -> G -> bool) kind,
  total_order vle -> total_order gle ->
  forall K l, (1 <= K)%Z -> same_kind V G kind l -> NoDup (map fst l) ->
  argmax_cpy vle gle kind (Some K) l =
  Ok (map snd (firstn (Z.to_nat K) (isort (ple (flip vle) (flip gle)) l))).
Proof.
  exact (fun V G vle gle kind Hv Hg =>
           C20_argmin_cpython_distinct_values_exact V G (flip vle) (flip gle) kind
             (flip_total_order vle Hv) (flip_total_order gle Hg)).
Qed.

(* so does the reference implementation "keep the list sorted descending" *)
Theorem C20_reference_heap_meets_contract :
  forall V G (vle : V -> V -> bool) (gle : G -> G -> bool),
  total_order vle -> total_order gle ->
  heap_contract vle gle (ref_heapify_max (ple vle gle)) (ref_heapreplace_max (ple vle gle)).
Proof. exact @ref_contract. Qed.

Theorem C20_array_concat_agg_ignores_null :
  forall X (rows : list (option (list X))),
  array_concat_agg rows = concat (somes X rows) /\
  forall r1 r2 : list (option (list X)),
    array_concat_agg (r1 ++ None :: r2) = array_concat_agg (r1 ++ r2).
Proof. exact array_concat_agg_ignores_null. Qed.

Theorem C20_set_agg_is_the_set_of_inputs :
  forall X (eqb : X -> X -> bool), (forall a b, eqb a b = true <-> a = b) ->
  forall rows, NoDup (distinct_list_agg eqb rows) /\
               forall x, In x (distinct_list_agg eqb rows) <-> In x rows.
Proof. exact set_agg_is_set. Qed.

Theorem C20_set_agg_arrival_order :
  forall X (eqb : X -> X -> bool), (forall a b, eqb a b = true <-> a = b) ->
  forall rows rows', Permutation rows rows' ->
  Permutation (distinct_list_agg eqb rows) (distinct_list_agg eqb rows').
Proof. exact set_agg_perm. Qed.

Theorem C20_sortlist_sorted_permutation :
  forall X (le : X -> X -> bool),
  (forall a b, le a b = true \/ le b a = true) ->
  (forall a b c, le a b = true -> le b c = true -> le a c = true) ->
  (forall a b, le a b = true -> le b a = true -> a = b) ->
  forall l, sorted le (sort_list le l) /\ Permutation (sort_list le l) l /\
            forall l', Permutation l l' -> sort_list le l' = sort_list le l.
Proof. exact sortlist_sorted_perm. Qed.

Theorem C20_in_list_is_membership :
  forall X (eqb : X -> X -> bool), (forall a b, eqb a b = true <-> a = b) ->
  forall x l, in_list eqb x l = true <-> In x l.
Proof. exact in_list_iff. Qed.

Theorem C20_take_first_returns_an_input :
  forall X (truthy : X -> bool) rows,
  take_first truthy rows = None \/ In (take_first truthy rows) rows.
Proof. exact take_first_member. Qed.

(* Sum, Min, Max, Avg, Count, Set of the Spec are functions of the bag of rows *)
Theorem C20_bag_aggregates_arrival_order :
  forall rows rows', Permutation rows rows' ->
  spec_agg ASum rows = spec_agg ASum rows' /\ spec_agg AMin rows = spec_agg AMin rows' /\
  spec_agg AMax rows = spec_agg AMax rows' /\ spec_agg AAvg rows = spec_agg AAvg rows' /\
  spec_agg ACount rows = spec_agg ACount rows' /\ spec_agg ASet rows = spec_agg ASet rows'.
Proof. exact bag_aggregates_perm. Qed.

Example ex_orders : total_order Z.leb /\ total_order (flip Z.leb).
Proof. split; [exact Z_total_order|exact (flip_total_order _ Z_total_order)]. Qed.
Example ex_scalar_order : total_order sle.    (* numbers and strings as used by the tie *)
Proof. exact sle_total_order. Qed.
Example ex_argmin : argminZ (Some 2%Z) [(3, 1); (1, 2); (1, 3); (2, 4)]%Z = Ok [2; 3]%Z.
Proof. reflexivity. Qed.
Example ex_argmin_tie_other_order : argminZ (Some 1%Z) [(1, 3); (1, 2)]%Z = Ok [3]%Z /\
                                    argminZ (Some 1%Z) [(1, 2); (1, 3)]%Z = Ok [2]%Z.
Proof. split; reflexivity. Qed.
Example ex_argmax : argmaxZ (Some 3%Z) [(3, 1); (1, 2); (1, 3); (2, 4)]%Z = Ok [1; 4; 3]%Z.
Proof. reflexivity. Qed.
Example ex_same_kind : same_kind Z Z zkind [(3, 1); (1, 2)]%Z.
Proof. intros x y _ _. reflexivity. Qed.
Example ex_limit_error : argminZ (Some 0%Z) [(3, 1)]%Z = ErrLimit.
Proof. reflexivity. Qed.
Example ex_set : distinct_list_agg Z.eqb [0; 8; 0]%Z = [0; 8]%Z.
Proof. reflexivity. Qed.
Example ex_spec_range : spec ORange [VInt 3] = VList [VInt 0; VInt 1; VInt 2] /\
                        spec ORange [VInt 0] = VList [] /\
                        spec OElement [VList [VInt 5; VInt 6]; VInt 2] = VNull /\
                        spec ODiv [VInt 7; VInt 0] = VNull.
Proof. repeat split; reflexivity. Qed.
