(* C16 — type unification is a symmetric idempotent meet; clash iff no common type.
   Statements, proved by `exact` or instantiation of a lemma of the proof files; examples proved in place.
   Model: Types/TypeAlgebra.v (tied to reference_algebra.py by the correspondence run of props/c16.py). *)
From Coq Require Import List Bool Permutation.
Import ListNotations.
From LV Require Import Types.TypeAlgebra Types.TypeAlgebraProofs Types.TypeLaws.

Theorem C16_meet_is_intersection :
  forall a, wf a = true -> forall b, wf b = true ->
  forall g, inst (meet a b) g = inst a g && inst b g.
Proof. exact meet_sound. Qed.

Theorem C16_clash_iff_no_common_instance :
  forall a b, wf a = true -> wf b = true ->
  (has_bad (meet a b) = true <-> forall g, inst a g && inst b g = false).
Proof. exact clash_iff_empty. Qed.

Theorem C16_symmetric :
  forall a b, wf a = true -> wf b = true -> same (meet a b) (meet b a).
Proof. exact meet_comm. Qed.

Theorem C16_idempotent :
  forall a b, wf a = true -> wf b = true -> same (meet (meet a b) (meet a b)) (meet a b).
Proof. exact meet_idem. Qed.

Theorem C16_repeat_changes_nothing :
  forall a b, wf a = true -> wf b = true ->
  same (meet (meet a b) a) (meet a b) /\ same (meet (meet a b) b) (meet a b).
Proof. exact meet_absorb. Qed.

Theorem C16_order_independent :
  forall l l', Forall (fun t => wf t = true) l -> Permutation l l' ->
  same (meet_all l) (meet_all l').
Proof. exact meet_order_independent. Qed.

Theorem C16_keeps_fields :
  forall ca fa cb fb c fs, meet (TRec ca fa) (TRec cb fb) = TRec c fs ->
  forall f, In f (keys fa) \/ In f (keys fb) -> In f (keys fs).
Proof. exact meet_keeps_fields. Qed.

Theorem C16_keeps_ground :
  forall x b, has_bad (meet (TAtom x) b) = false -> meet (TAtom x) b = TAtom x.
Proof. exact meet_keeps_atom. Qed.

Theorem C16_result_well_formed :
  forall a, wf a = true -> forall b, wf b = true -> wf (meet a b) = true.
Proof. exact meet_wf. Qed.

(* Non-vacuity: concrete well-formed terms on which the laws say something. *)
Definition ex_open := TRec false [(FName 0, TAtom ANum); (FPos 0, TList TAny)].
Definition ex_closed := TRec true [(FPos 0, TSequential); (FName 0, TSingular); (FName 1, TAtom AStr)].
Example ex_wf : wf ex_open = true /\ wf ex_closed = true.
Proof. split; reflexivity. Qed.
Example ex_meet :
  meet ex_open ex_closed =
  TRec true [(FName 0, TAtom ANum); (FPos 0, TList TAny); (FName 1, TAtom AStr)].
Proof. reflexivity. Qed.
Example ex_clash : has_bad (meet ex_closed (TRec false [(FName 2, TAny)])) = true.
Proof. reflexivity. Qed.
Example ex_field_clash :
  meet ex_open (TRec false [(FName 0, TAtom AStr)]) =
  TRec false [(FName 0, TBad); (FPos 0, TList TAny)].
Proof. reflexivity. Qed.

(* references: both sides denote the same type, for ever (model: Types/TypeHist.v) *)
From LV Require Import Types.TypeHist.
Theorem C16_unified_references_stay_equal :
  forall s i j later, i < length (cls s) -> j < length (cls s) ->
  let s' := hrun (hstep s (HUnify i j)) later in type_of s' i = type_of s' j.
Proof. exact unified_references_stay_equal. Qed.

Theorem C16_unification_gives_the_meet :
  forall s i j, i < length (cls s) -> class_of s i < length (tys s) -> class_of s i <> class_of s j ->
  type_of (hstep s (HUnify i j)) i = meet (type_of s i) (type_of s j).
Proof. exact unify_gives_meet. Qed.

Theorem C16_repeating_in_a_history_changes_nothing :
  forall s i j, i < length (cls s) -> j < length (cls s) ->
  hstep (hstep s (HUnify i j)) (HUnify i j) = hstep s (HUnify i j) /\
  hstep (hstep s (HUnify i j)) (HUnify j i) = hstep s (HUnify i j).
Proof. exact unify_then_repeat. Qed.

Example ex_history :
  view (hrun (hinit [TAny; TRec false [(FName 0, TAtom ANum)]; TAny]) [HUnify 0 1; HUnify 2 0; HClose 1]) =
  let t := TRec true [(FName 0, TAtom ANum)] in [t; t; t].
Proof. reflexivity. Qed.

(* the list element constraint `b in a` (Types/TypeElem.v, model of UnifyListElement) *)
From LV Require Import Types.TypeElem.
Theorem C16_element_constraint_list_side :
  forall a b, wf a = true -> wf b = true ->
  forall g, inst (fst (unify_list_element a b)) (GList g) = inst a (GList g) && (inst b g && scalar g).
Proof. exact list_after_element_analysis. Qed.

Theorem C16_element_constraint_element_side :
  forall a b e, wf a = true -> wf b = true -> fst (unify_list_element a b) = TList e ->
  snd (unify_list_element a b) = e /\ forall g, inst e g = inst a (GList g) && (inst b g && scalar g).
Proof. exact element_after_element_analysis. Qed.

Theorem C16_list_vs_scalar_clash_in_membership :
  forall a b g, wf a = true -> wf b = true -> inst (fst (unify_list_element a b)) (GList (GList g)) = false.
Proof. exact list_element_clashes. Qed.
