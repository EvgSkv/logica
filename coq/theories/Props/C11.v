(* C11 — documented shorthand forms mean the same as their long forms.
   Statements, each proved by `exact` of a lemma of the proof files; the example is evaluated in place.
   About the reference evaluator: several rules = one rule with `|`, a disjunction
   adds the bags of its alternatives (so `x in [a, b]` read as two alternatives is the sum of two
   bodies), `A, (B | C)` = `A, B | A, C`.  The parser's rewrites of the other shorthands are decided
   per instance by props/c11.py (each form printed from the same AST, SQLite rows compared). *)
From Coq Require Import List BinInt Permutation.
Import ListNotations.
From LV Require Import Core.Syntax Core.Eval Core.EvalProofs.

Theorem C11_rules_equal_disjunction :
  forall P D n k h b1 b2,
  eval_pdef P D {| p_name := n; p_kind := k;
                   p_rules := [ {| r_head := h; r_distinct := false; r_body := b1 |};
                                {| r_head := h; r_distinct := false; r_body := b2 |} ] |} =
  eval_pdef P D {| p_name := n; p_kind := k;
                   p_rules := [ {| r_head := h; r_distinct := false; r_body := POr [b1; b2] |} ] |}.
Proof. exact rules_as_disjunction. Qed.

Theorem C11_alternatives_add :
  forall P D h dis b1 b2,
  eval_rule P D {| r_head := h; r_distinct := dis; r_body := POr [b1; b2] |} =
  bind (eval_rule P D {| r_head := h; r_distinct := dis; r_body := b1 |}) (fun r1 =>
  bind (eval_rule P D {| r_head := h; r_distinct := dis; r_body := b2 |}) (fun r2 => Ok (r1 ++ r2))).
Proof. exact eval_rule_disjunction. Qed.

Theorem C11_conjunction_distributes_over_alternatives :
  forall p q1 q2, Permutation (dnf (PAnd [p; POr [q1; q2]])) (dnf (POr [PAnd [p; q1]; PAnd [p; q2]])).
Proof. exact dnf_distributes. Qed.

(* `x in [1, 2]` and `(x == 1 | x == 2)` have the same bag (instance, evaluated) *)
Definition in_form : rule :=
  {| r_head := [(0, HExpr (EVar 0))]; r_distinct := false;
     r_body := PConj (CIn (EVar 0) (EList [EInt 1; EInt 2])) |}.
Definition alt_form : rule :=
  {| r_head := [(0, HExpr (EVar 0))]; r_distinct := false;
     r_body := POr [PConj (CUnify (EVar 0) (EInt 1)); PConj (CUnify (EVar 0) (EInt 2))] |}.
Example ex_in_two_alternatives : eval_rule [] [] in_form = eval_rule [] [] alt_form.
Proof. vm_compute. reflexivity. Qed.
