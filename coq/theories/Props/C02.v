(* C02 — aggregation, distinct and negation follow the documented semantics.
   Statements, proved by `exact` or instantiation of a lemma of the proof files; examples proved in place.
   About the reference evaluator Core/Eval.v (the oracle of props/c02.py):
   documented aggregates ignore null inputs, aggregate nothing to null, Sum over integers is independent of
   the arrival order, a distinct predicate has pairwise different keys.  The compiler is tied per
   instance (SQLite rows vs eval_query), not proved. *)
From Coq Require Import List BinInt Permutation.
Import ListNotations.
From LV Require Import Core.Syntax Core.Eval Core.AggProofs.

Theorem C02_aggregates_ignore_null :
  forall op vals, documented op = true ->
  aggregate op vals = aggregate op (filter (fun v => negb (is_null v)) vals).
Proof. exact aggregate_ignores_null. Qed.

Theorem C02_aggregating_nothing_is_null :
  forall op vals, documented op = true -> forallb is_null vals = true -> aggregate op vals = Ok VNull.
Proof. exact aggregate_nothing_is_null. Qed.

Theorem C02_sum_independent_of_arrival_order :
  forall vals vals', all_int (filter (fun v => negb (is_null v)) vals) = true -> Permutation vals vals' ->
  aggregate ASum vals = aggregate ASum vals'.
Proof. exact sum_arrival_order. Qed.

Theorem C02_distinct_keys_pairwise_different :
  forall keyf pre, pairwise_distinct (keys_of keyf pre).
Proof. exact distinct_keys_once. Qed.

(* Non-vacuity and the documented examples: negation holds exactly when the body has no solution,
   an aggregating expression is evaluated per outer binding, nothing aggregates to null. *)
Definition f1 (z : Z) : rule := {| r_head := [(0, HExpr (EInt z))]; r_distinct := false; r_body := PAnd [] |}.
Definition prog : program :=
  [ {| p_name := 0; p_kind := KTable; p_rules := [f1 1; f1 2; f1 2] |};     (* T(1); T(2); T(2); *)
    {| p_name := 1; p_kind := KTable; p_rules := [f1 2] |};                 (* S(2); *)
    (* N(x) :- T(x), ~S(x); *)
    {| p_name := 2; p_kind := KTable; p_rules := [ {| r_head := [(0, HExpr (EVar 0))]; r_distinct := false;
         r_body := PAnd [PConj (CAtom 0 [(0, EVar 0)]); PConj (CNot [CAtom 1 [(0, EVar 0)]])] |} ] |};
    (* C(x, s) :- T(x), s == Sum{y :- T(y), y > x}; *)
    {| p_name := 3; p_kind := KTable; p_rules := [ {| r_head := [(0, HExpr (EVar 0)); (1, HExpr (EVar 1))]; r_distinct := false;
         r_body := PAnd [PConj (CAtom 0 [(0, EVar 0)]);
                         PConj (CUnify (EVar 1) (ECombine ASum (EVar 2) [CAtom 0 [(0, EVar 2)]; CCond (EBin OGt (EVar 2) (EVar 0))]))] |} ] |};
    (* A(x, n? += 1) distinct :- T(x); *)
    {| p_name := 4; p_kind := KTable; p_rules := [ {| r_head := [(0, HExpr (EVar 0)); (100, HAgg ASum (EInt 1))]; r_distinct := true;
         r_body := PConj (CAtom 0 [(0, EVar 0)]) |} ] |} ].
Example ex_negation : eval_query prog [] 2 = Ok [[(0, VInt 1)]].
Proof. vm_compute. reflexivity. Qed.
Example ex_combine_per_binding :
  eval_query prog [] 3 = Ok [[(0, VInt 1); (1, VInt 4)]; [(0, VInt 2); (1, VNull)]; [(0, VInt 2); (1, VNull)]].
Proof. vm_compute. reflexivity. Qed.
Example ex_distinct_groups : eval_query prog [] 4 = Ok [[(0, VInt 1); (100, VInt 1)]; [(0, VInt 2); (100, VInt 2)]].
Proof. vm_compute. reflexivity. Qed.
Example ex_documented : documented AList = true /\ all_int [VInt 1; VInt 2] = true.
Proof. split; reflexivity. Qed.
