(* C15 — layout, comments and string contents never change what is parsed (lexical layer).
   Statements, proved by `exact` or instantiation of a lemma of the proof files; examples proved in place.
   Models: Lex/Traverse.v (Traverse, RemoveComments, IsWhole), Lex/Split.v (StripSpaces, Strip, SplitRaw,
   Split), Lex/Span.v (HeritageAwareString), tied to parser_py/parse.py by the correspondence run of props/c15.py.
   [ann k s] is what Traverse yields for every character of s when started in configuration k;
   [Run [] st] is the configuration with bracket/mode stack st (top first). *)
From Coq Require Import List NArith BinInt.
Import ListNotations.
From LV Require Import Lex.Traverse Lex.TraverseProofs Lex.Split Lex.SplitProofs Lex.Span Lex.SpanProofs.

Theorem C15_block_comment_transparent : forall st body rest,
  code_state st = true -> no_close body = true ->
  ann (Run [] st) (ch_slash :: ch_star :: body ++ ch_star :: ch_slash :: rest) =
  repeat ASilent (length body + 4) ++ ann (Run [] st) rest.
Proof. exact block_comment_transparent. Qed.

Theorem C15_line_comment_transparent : forall st body rest,
  code_state st = true -> no_char ch_nl body = true ->
  ann (Run [] st) (ch_hash :: body ++ ch_nl :: rest) =
  repeat ASilent (S (length body)) ++ AOk st :: ann (Run [] st) rest.
Proof. exact line_comment_transparent. Qed.

Theorem C15_line_comment_at_end_of_text : forall st body,
  code_state st = true -> no_char ch_nl body = true ->
  ann (Run [] st) (ch_hash :: body) = repeat ASilent (S (length body)).
Proof. exact line_comment_at_eof. Qed.

Theorem C15_remove_comments_block : forall st body rest,
  code_state st = true -> no_close body = true ->
  vis (Run [] st) (ch_slash :: ch_star :: body ++ ch_star :: ch_slash :: rest) = vis (Run [] st) rest.
Proof. exact remove_comments_block. Qed.

Theorem C15_remove_comments_line : forall st body rest,
  code_state st = true -> no_char ch_nl body = true ->
  vis (Run [] st) (ch_hash :: body ++ ch_nl :: rest) = option_map (cons ch_nl) (vis (Run [] st) rest).
Proof. exact remove_comments_line. Qed.

(* string literals: every character inside keeps the quote on top of the stack (so the
   state is never empty: no split point, no bracket counted, no comment opened) and the
   scanner continues after the literal exactly as it would without it *)
Theorem C15_string_opaque_double_quote : forall st body rest,
  code_state st = true -> no_char ch_dq body = true -> no_char ch_nl body = true ->
  not_triple body rest ->
  ann (Run [] st) (ch_dq :: body ++ ch_dq :: rest) =
  repeat (AOk (ch_dq :: st)) (S (length body)) ++ AOk st :: ann (Run [] st) rest.
Proof. exact string_opaque_dq. Qed.

Theorem C15_string_opaque_backtick : forall st body rest,
  code_state st = true -> no_char ch_bt body = true ->
  ann (Run [] st) (ch_bt :: body ++ ch_bt :: rest) =
  repeat (AOk (ch_bt :: st)) (S (length body)) ++ AOk st :: ann (Run [] st) rest.
Proof. exact string_opaque_backtick. Qed.

(* single quotes: only for bodies without backslash (see C15_single_quote_escape_leaks) *)
Theorem C15_string_opaque_single_quote_partial : forall st body rest,
  code_state st = true -> no_char ch_sq body = true -> no_char ch_bs body = true ->
  ann (Run [] st) (ch_sq :: body ++ ch_sq :: rest) =
  repeat (AOk (ch_sq :: st)) (S (length body)) ++ AOk st :: ann (Run [] st) rest.
Proof. exact string_opaque_sq. Qed.

Theorem C15_string_opaque_triple_quote : forall st body rest,
  code_state st = true -> no_char ch_dq body = true ->
  ann (Run [] st) (ch_dq :: ch_dq :: ch_dq :: body ++ ch_dq :: ch_dq :: ch_dq :: rest) =
  repeat (AOk (ch_3 :: st)) (length body + 3) ++ repeat (AOk st) 3 ++ ann (Run [] st) rest.
Proof. exact string_opaque_triple. Qed.

Theorem C15_split_swallows_string : forall sep c0 tl0, sep = c0 :: tl0 -> ceq c0 ch_dq = false ->
  forall body st prev idx pstart cur rest,
  code_state st = true -> no_char ch_dq body = true -> no_char ch_nl body = true ->
  not_triple body rest ->
  sgo sep (Run [] st) prev 0 idx pstart cur (ch_dq :: body ++ ch_dq :: rest) =
  sgo sep (Run [] st) (Some ch_dq) 0 (idx + length body + 2) pstart
      (ch_dq :: rev body ++ ch_dq :: cur) rest.
Proof. exact split_swallows_dq. Qed.

Theorem C15_split_join : forall sep c0 tl0 s ps,
  sep = c0 :: tl0 -> ceq c0 ch_dq = false -> forallb plain tl0 = true ->
  split_raw sep s = SParts ps -> join sep (map txt ps) = s.
Proof. exact split_join. Qed.

Theorem C15_strip_parens : forall s, is_whole s = true -> strip (ch_lp :: s ++ [ch_rp]) = strip s.
Proof. exact strip_parens. Qed.

Theorem C15_strip_keeps_unbalanced_parens : forall s, is_whole s = false ->
  strip (ch_lp :: s ++ [ch_rp]) = ch_lp :: s ++ [ch_rp].
Proof. exact strip_keeps_unbalanced_parens. Qed.

Theorem C15_strip_white_space : forall w1 s w2,
  forallb is_space w1 = true -> forallb is_space w2 = true -> strip (w1 ++ s ++ w2) = strip s.
Proof. exact strip_ws. Qed.

Theorem C15_split_parts_are_exact_spans : forall sep s ps,
  split_raw sep s = SParts ps -> Forall (part_exact s) ps.
Proof. exact split_raw_spans. Qed.

Theorem C15_strip_span_exact : forall s a b, strip_off s = (a, b) ->
  a <= b /\ b <= length s /\ strip s = sub s a b.
Proof. exact strip_span_exact. Qed.

Theorem C15_slice_span_exact : forall h a b,
  wf h -> (0 <= a)%Z -> (a <= norm_stop (zlen (h_text h)) b)%Z ->
  wf (get_slice h a b) /\
  h_text (get_slice h a b) = sub (h_text h) (Z.to_nat a) (Z.to_nat (norm_stop (zlen (h_text h)) b)).
Proof. exact get_slice_exact. Qed.

Theorem C15_split_parts_heritage_exact : forall h sep ps,
  wf h -> split_raw sep (h_text h) = SParts ps ->
  Forall (fun p => wf (part_slice h p) /\ h_text (part_slice h p) = txt p) ps.
Proof. exact split_raw_parts_exact. Qed.

(* the model says: GetSlice with a negative start does not give an exact span (parse.py uses
   such slices for comparisons only; the harness checks every span that reaches a tree) *)
Theorem C15_negative_start_slice_refuted :
  exists h a b, wf h /\ (a < 0)%Z /\ ~ wf (get_slice h a b).
Proof. exact get_slice_negative_start_not_exact. Qed.

Definition s_of (l : list nat) : str := map N.of_nat l.
(* a /* ) */ b  : the bracket inside the comment is not seen *)
Example ex_comment : is_whole (s_of [97; 47; 42; 41; 42; 47; 98]) = true.
Proof. reflexivity. Qed.
(* "a,b;(",c split on the comma: two parts, the separator inside the literal is not one *)
Example ex_split :
  split_raw [44%N] (s_of [34; 97; 44; 98; 59; 40; 34; 44; 99]) =
  SParts [(0, 7, s_of [34; 97; 44; 98; 59; 40; 34]); (8, 9, s_of [99])].
Proof. vm_compute. reflexivity. Qed.
(* the single-quote escape quirk of the scanner, as modelled: in '\(' the bracket is counted *)
Example C15_single_quote_escape_leaks : is_whole (s_of [39; 92; 40; 39]) = false.
Proof. reflexivity. Qed.
Example ex_strip : strip (s_of [32; 40; 40; 97; 41; 32; 41; 10]) = s_of [97].
Proof. vm_compute. reflexivity. Qed.
