(* C13 — compilation is a deterministic, history-free function of the program.
   Only statements.  Model: Lex/Session.v (the module-level parser switch parse.TOO_MUCH).  The model
   carries the one piece of logic through which history can matter inside a process; hash-seed and
   cross-process behaviour is explored on the real code by props/c13.py (level: other).
   Since /repo fix db04ac5 parse.py recomputes the switch for every main file: parse_step_reset is the code as
   it is, parse_step_sticky the behaviour before that fix: the characterisation of the defect. *)
From Coq Require Import List NArith.
Import ListNotations.
From LV Require Import Lex.Session Lex.SessionProofs.

(* the switch is recomputed for every main file (parse.py as it is): the tree is a function of the text *)
Theorem C13_history_free_if_reset :
  forall history st t, run parse_step_reset st history t = read (has_incantation t) t.
Proof. exact history_free_if_reset. Qed.

(* the sticky switch: the history matters exactly through "an earlier main file had the incantation" *)
Theorem C13_sticky_characterised :
  forall history st t,
  run parse_step_sticky st history t =
  read (too_much st || existsb has_incantation history || has_incantation t) t.
Proof. exact sticky_characterised. Qed.

Theorem C13_sticky_history_free_without_incantation :
  forall history t, existsb has_incantation history = false ->
  run parse_step_sticky fresh history t = run parse_step_sticky fresh [] t.
Proof. exact sticky_history_free_without_incantation. Qed.

(* ... and that does change the reading of a plain later program: refutation of history freedom *)
Theorem C13_history_dependent_refuted :
  exists history t, has_incantation t = false /\
    run parse_step_sticky fresh history t <> run parse_step_sticky fresh [] t.
Proof. exact history_dependent_refuted. Qed.

Example C13_witness_fresh : run parse_step_sticky fresh [] w_plain = Times [50%N] (Call [70%N] [51%N]).
Proof. exact w_fresh. Qed.
Example C13_witness_after : run parse_step_sticky fresh [w_first] w_plain = Call [50%N; 42%N; 70%N] [51%N].
Proof. exact w_after. Qed.
