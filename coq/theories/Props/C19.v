(* C19 — invalid programs are rejected with a diagnostic, never compiled to wrong SQL.
   Statements, proved by `exact` or instantiation of a lemma of the proof files; examples proved in place.
   About the range-restriction decision of the reference evaluator (the oracle that
   says which corrupted programs props/c19.py must see rejected): a conjunction is evaluable iff SOME
   order of its conjuncts has every variable determined when it is needed; the decision does not
   depend on the textual order; an undeterminable conjunction is an error, never a result.
   That the real compiler raises a diagnostic is decided per corruption instance. *)
From Coq Require Import List BinInt Permutation.
Import ListNotations.
From LV Require Import Core.Syntax Core.Eval Core.ScheduleProofs.

Theorem C19_scheduler_finds_an_order_if_one_exists :
  forall scope fuel B cs, length cs <= fuel -> sched scope B cs ->
  exists l, schedule scope fuel B cs = Some l.
Proof. exact schedule_complete. Qed.

Theorem C19_scheduled_order_is_evaluable :
  forall scope fuel B cs l, schedule scope fuel B cs = Some l -> sched scope B cs.
Proof. exact schedule_sound. Qed.

Theorem C19_scheduled_order_keeps_every_conjunct_once :
  forall scope fuel B cs l, schedule scope fuel B cs = Some l -> Permutation cs l.
Proof. exact schedule_is_permutation. Qed.

Theorem C19_range_restriction_does_not_depend_on_order :
  forall scope B cs cs', Permutation cs cs' ->
  (exists l, schedule scope (S (length cs)) B cs = Some l) <->
  (exists l, schedule scope (S (length cs')) B cs' = Some l).
Proof. exact range_restriction_order_independent. Qed.

Theorem C19_not_range_restricted_is_an_error :
  forall n P D scope en cs,
  schedule scope (S (length cs)) (map fst en) cs = None ->
  eval_conj_list (S n) P D scope en cs = Fail E_UNSAFE.
Proof. exact unsafe_is_rejected. Qed.

(* Non-vacuity: the corruption classes of the catalogue are refused by the evaluator. *)
Definition T : pdef := {| p_name := 0; p_kind := KTable;
  p_rules := [ {| r_head := [(0, HExpr (EInt 1))]; r_distinct := false; r_body := PAnd [] |} ] |}.
Definition q (h : list (field * hval)) (dis : bool) (b : prop) : program :=
  [T; {| p_name := 1; p_kind := KTable; p_rules := [ {| r_head := h; r_distinct := dis; r_body := b |} ] |}].
(* Q(x) :- T(y): head variable unbound *)
Example ex_head_unbound : eval_query (q [(0, HExpr (EVar 0))] false (PConj (CAtom 0 [(0, EVar 1)]))) [] 1 = Fail E_UNSAFE.
Proof. reflexivity. Qed.
(* Q(y) :- T(y), z > 1: comparison variable unbound *)
Example ex_cmp_unbound :
  eval_query (q [(0, HExpr (EVar 1))] false
                (PAnd [PConj (CAtom 0 [(0, EVar 1)]); PConj (CCond (EBin OGt (EVar 2) (EInt 1)))])) [] 1 = Fail E_UNSAFE.
Proof. reflexivity. Qed.
(* Q(x) :- T(y), ~T(x): head variable bound only by a negation *)
Example ex_neg_unbound :
  eval_query (q [(0, HExpr (EVar 0))] false
                (PAnd [PConj (CAtom 0 [(0, EVar 1)]); PConj (CNot [CAtom 0 [(0, EVar 0)]])])) [] 1 = Fail E_UNSAFE.
Proof. reflexivity. Qed.
(* Q(y, s? += 1) :- T(y) without distinct *)
Example ex_agg_without_distinct :
  eval_query (q [(0, HExpr (EVar 1)); (100, HAgg ASum (EInt 1))] false (PConj (CAtom 0 [(0, EVar 1)]))) [] 1 = Fail E_DISTINCT.
Proof. reflexivity. Qed.
Example ex_valid : eval_query (q [(0, HExpr (EVar 1))] false (PConj (CAtom 0 [(0, EVar 1)]))) [] 1 = Ok [[(0, VInt 1)]].
Proof. reflexivity. Qed.
