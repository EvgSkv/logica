(* C20 — proofs about Udf/Aggregates.v and the bag-aggregate specs of Udf/BuiltinSpec.v. *)
From Coq Require Import List ZArith Lia Permutation.
Import ListNotations.
From LV Require Import Util.ListFacts Util.SortedFacts Udf.ArgMinMax Udf.ArgMinMaxProofs Udf.Aggregates Udf.BuiltinSpec.

Section AggFacts.
  Variable X : Type.
  Variable eqb : X -> X -> bool.
  Hypothesis eqb_spec : forall a b, eqb a b = true <-> a = b.

  Fixpoint somes (rows : list (option (list X))) : list (list X) :=
    match rows with
    | [] => []
    | None :: t => somes t
    | Some l :: t => l :: somes t
    end.

  Lemma aca_from st rows : fold_left aca_step rows st = st ++ concat (somes rows).
  Proof.
    revert st. induction rows as [|[l|] t IH]; intros st; simpl.
    - rewrite app_nil_r; auto.
    - rewrite IH, app_assoc; auto.
    - apply IH.
  Qed.

  Lemma array_concat_agg_ignores_null rows :
    array_concat_agg rows = concat (somes rows) /\
    forall r1 r2 : list (option (list X)),
      array_concat_agg (r1 ++ None :: r2) = array_concat_agg (r1 ++ r2).
  Proof.
    split; [apply (aca_from [])|]. intros r1 r2. unfold array_concat_agg.
    rewrite !fold_left_app. reflexivity.
  Qed.

  Lemma in_list_iff x l : in_list eqb x l = true <-> In x l.
  Proof. apply (existsb_eqb_In eqb eqb_spec). Qed.

  Lemma dla_step_spec st r : NoDup st ->
    NoDup (dla_step eqb st r) /\ forall x, In x (dla_step eqb st r) <-> In x st \/ r = x.
  Proof.
    intros Hst. unfold dla_step. destruct (in_list eqb r st) eqn:E.
    - apply in_list_iff in E. split; auto. intros x. split; auto. intros [H| <-]; auto.
    - split; [|intros x; rewrite in_app_iff; simpl; tauto].
      apply NoDup_app; [exact Hst|repeat constructor; intros []|].
      intros x Hx [<-|[]]. apply in_list_iff in Hx. congruence.
  Qed.

  (* the Set aggregate returns, as a set, exactly the distinct input values *)
  Theorem set_agg_is_set rows :
    NoDup (distinct_list_agg eqb rows) /\ forall x, In x (distinct_list_agg eqb rows) <-> In x rows.
  Proof.
    unfold distinct_list_agg. induction rows as [|r rows [A B]] using rev_ind.
    - split; [constructor|reflexivity].
    - rewrite fold_left_app. cbn [fold_left].
      destruct (dla_step_spec _ r A) as [A' B']. split; [exact A'|].
      intros x. rewrite B', B, in_app_iff. simpl. tauto.
  Qed.

  Theorem set_agg_perm rows rows' : Permutation rows rows' ->
    Permutation (distinct_list_agg eqb rows) (distinct_list_agg eqb rows').
  Proof.
    intros P. destruct (set_agg_is_set rows) as [A B]. destruct (set_agg_is_set rows') as [A' B'].
    apply NoDup_Permutation; auto. intros x. rewrite B, B'. exact (Permutation_in' eq_refl P).
  Qed.

  Variable truthy : X -> bool.
  Lemma tf_from rows : forall st,
    fold_left (tf_step truthy) rows st = st \/ In (fold_left (tf_step truthy) rows st) rows.
  Proof.
    induction rows as [|r t IH]; intros st; simpl; auto.
    destruct (IH (tf_step truthy st r)) as [E|H]; auto. rewrite E.
    unfold tf_step. destruct st as [x|]; auto. destruct (truthy x); auto.
  Qed.
  Theorem take_first_member rows : take_first truthy rows = None \/ In (take_first truthy rows) rows.
  Proof. apply tf_from. Qed.
End AggFacts.

Section SortListFacts.
  Variable X : Type.
  Variable le : X -> X -> bool.
  Hypothesis le_total : forall a b, le a b = true \/ le b a = true.
  Hypothesis le_trans : forall a b c, le a b = true -> le b c = true -> le a c = true.
  Hypothesis le_antisym : forall a b, le a b = true -> le b a = true -> a = b.

  Theorem sortlist_sorted_perm l :
    sorted le (sort_list le l) /\ Permutation (sort_list le l) l /\
    forall l', Permutation l l' -> sort_list le l' = sort_list le l.
  Proof.
    unfold sort_list. split; [apply isort_sorted; auto|split; [apply isort_perm|]].
    intros l' P. apply isort_perm_eq; auto. apply Permutation_sym; auto.
  Qed.
End SortListFacts.

Section FlipFacts.
  Variable X : Type.
  Variable le : X -> X -> bool.
  Hypothesis le_total : forall a b, le a b = true \/ le b a = true.
  Hypothesis le_trans : forall a b c, le a b = true -> le b c = true -> le a c = true.
  Hypothesis le_antisym : forall a b, le a b = true -> le b a = true -> a = b.
  Lemma flip_total a b : flip le a b = true \/ flip le b a = true.
  Proof. unfold flip. destruct (le_total a b); auto. Qed.
  Lemma flip_trans a b c : flip le a b = true -> flip le b c = true -> flip le a c = true.
  Proof. unfold flip. eauto. Qed.
  Lemma flip_antisym a b : flip le a b = true -> flip le b a = true -> a = b.
  Proof. unfold flip. auto. Qed.
End FlipFacts.

Lemma flip_total_order {A} (le : A -> A -> bool) : total_order le -> total_order (flip le).
Proof.
  intros (T & R & S).
  split; [exact (flip_total A le T)|split; [exact (flip_trans A le R)|exact (flip_antisym A le S)]].
Qed.

Lemma sum_perm l l' : Permutation l l' -> sum_list l = sum_list l'.
Proof. intros P. apply (fold_left_perm Z.add _ _ P). intros. lia. Qed.

Lemma fold_left_assoc_from {A} (f : A -> A -> A) : (forall a b c, f (f a b) c = f a (f b c)) ->
  forall l a b, fold_left f l (f a b) = f a (fold_left f l b).
Proof. intros H. induction l as [|x t IH]; intros a b; simpl; auto. rewrite H. apply IH. Qed.

Lemma fold_min_from l : forall a b, fold_left Z.min l (Z.min a b) = Z.min a (fold_left Z.min l b).
Proof. apply fold_left_assoc_from. intros. symmetry. apply Z.min_assoc. Qed.
Lemma fold_max_from l : forall a b, fold_left Z.max l (Z.max a b) = Z.max a (fold_left Z.max l b).
Proof. apply fold_left_assoc_from. intros. symmetry. apply Z.max_assoc. Qed.

(* a fold that selects: f a b is one of a, b that is R-below the other *)
Lemma fold_select {A} (f : A -> A -> A) (R : A -> A -> Prop) :
  (forall a, R a a) -> (forall a b c, R a b -> R b c -> R a c) ->
  (forall a b, R a b /\ f a b = a \/ R b a /\ f a b = b) ->
  forall t a, In (fold_left f t a) (a :: t) /\ forall y, In y (a :: t) -> R (fold_left f t a) y.
Proof.
  intros Rrefl Rtrans Hf. induction t as [|b t IH]; intros a; simpl.
  - split; auto. intros y [<-|[]]. apply Rrefl.
  - destruct (IH (f a b)) as [Hin Hle]. simpl in Hin, Hle.
    pose proof (Hle _ (or_introl eq_refl)) as Hm.
    destruct (Hf a b) as [[Hab E]|[Hba E]]; rewrite E in *.
    + split; [destruct Hin; auto|]. intros y [<-|[<-|Hy]]; eauto.
    + split; [auto|]. intros y [<-|Hy]; eauto.
Qed.

Lemma zmin_is_least l x : zmin_list l = VInt x -> In x l /\ forall y, In y l -> (x <= y)%Z.
Proof.
  destruct l as [|a t]; [discriminate|]. intros [= <-].
  apply (fold_select Z.min Z.le Z.le_refl Z.le_trans). intros p q. pose proof (Z.min_spec p q). lia.
Qed.
Lemma zmax_is_greatest l x : zmax_list l = VInt x -> In x l /\ forall y, In y l -> (y <= x)%Z.
Proof.
  destruct l as [|a t]; [discriminate|]. intros [= <-].
  apply (fold_select Z.max (fun p q => (q <= p)%Z) Z.le_refl); [intros; lia|].
  intros p q. pose proof (Z.max_spec p q). lia.
Qed.

Lemma zmin_perm l l' : Permutation l l' -> zmin_list l = zmin_list l'.
Proof. intros P. apply (fold1_perm Z.min (fun x => x) VNull VInt l l' P); intros; lia. Qed.
Lemma zmax_perm l l' : Permutation l l' -> zmax_list l = zmax_list l'.
Proof. intros P. apply (fold1_perm Z.max (fun x => x) VNull VInt l l' P); intros; lia. Qed.

(* Sum, Min, Max, Avg, Count, Set only depend on the bag of values *)
Theorem bag_aggregates_perm rows rows' :
  Permutation rows rows' ->
  spec_agg ASum rows = spec_agg ASum rows' /\ spec_agg AMin rows = spec_agg AMin rows' /\
  spec_agg AMax rows = spec_agg AMax rows' /\ spec_agg AAvg rows = spec_agg AAvg rows' /\
  spec_agg ACount rows = spec_agg ACount rows' /\ spec_agg ASet rows = spec_agg ASet rows'.
Proof.
  intros P. apply (Permutation_map snd) in P.
  assert (Hs := sum_perm _ _ P). assert (Hl := Permutation_length P).
  assert (Pd := set_agg_perm Z Z.eqb Z.eqb_eq _ _ P).
  unfold spec_agg, distinct; cbv zeta.
  repeat split.
  - rewrite Hs. apply perm_nonempty, P.
  - apply zmin_perm, P.
  - apply zmax_perm, P.
  - rewrite Hs, Hl. apply perm_nonempty, P.
  - rewrite (Permutation_length Pd). reflexivity.
  - do 2 f_equal. destruct Z_total_order as (T & R & S). apply (isort_perm_eq Z Z.leb T R S), Pd.
Qed.
