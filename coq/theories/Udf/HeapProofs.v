(* C20 — the model of CPython's heapq (cpy_siftup_max = _siftup_max followed by _siftdown_max,
   cpy_heapify_max, cpy_heapreplace_max of Udf/ArgMinMax.v) meets the heap contract used by the
   ArgMin theorems: the array is permuted and afterwards every parent is >= its children, hence
   position 0 holds a maximum. *)
From Coq Require Import List Bool Arith Lia Permutation.
Import ListNotations.
From LV Require Import Udf.ArgMinMax Udf.ArgMinMaxProofs.

Section ArrFacts.
  Variable E : Type.
  Implicit Types l : list E.

  Lemma set_nth_length l : forall i x, length (set_nth l i x) = length l.
  Proof. induction l as [|a t IH]; intros [|i] x; simpl; auto. Qed.

  Lemma nth_set_nth_eq l : forall i x d, i < length l -> nth i (set_nth l i x) d = x.
  Proof. induction l as [|a t IH]; intros [|i] x d H; simpl in *; try lia; auto. apply IH; lia. Qed.

  Lemma nth_set_nth_neq l : forall i j x d, i <> j -> nth j (set_nth l i x) d = nth j l d.
  Proof.
    induction l as [|a t IH]; intros [|i] [|j] x d H; simpl; auto; try congruence.
  Qed.

  Lemma set_nth_same l : forall i d, set_nth l i (nth i l d) = l.
  Proof. induction l as [|a t IH]; intros [|i] d; simpl; auto. f_equal; auto. Qed.

  Lemma set_nth_twice l : forall i x y, set_nth (set_nth l i x) i y = set_nth l i y.
  Proof. induction l as [|a t IH]; intros [|i] x y; simpl; auto. f_equal; auto. Qed.

  Lemma set_nth_comm l : forall i j x y, i <> j ->
    set_nth (set_nth l i x) j y = set_nth (set_nth l j y) i x.
  Proof.
    induction l as [|a t IH]; intros [|i] [|j] x y H; simpl; auto; try congruence.
    f_equal. apply IH. congruence.
  Qed.

  Lemma perm_head_swap l : forall j x y, j < length l ->
    Permutation (x :: set_nth l j y) (y :: set_nth l j x).
  Proof.
    induction l as [|a t IH]; intros [|j] x y H; simpl in *; try lia.
    - apply perm_swap.
    - eapply perm_trans; [apply perm_swap|]. eapply perm_trans; [|apply perm_swap].
      apply perm_skip. apply IH. lia.
  Qed.

  (* moving the hole: position p receives the value of position c, the hole moves to c *)
  Lemma hole_move l : forall p c x d, p <> c -> p < length l -> c < length l ->
    Permutation (set_nth (set_nth l p (nth c l d)) c x) (set_nth l p x).
  Proof.
    induction l as [|a t IH]; intros [|p] [|c] x d H Hp Hc; simpl in *; try lia.
    - eapply perm_trans; [apply perm_head_swap; lia|]. rewrite set_nth_same. apply Permutation_refl.
    - apply perm_head_swap. lia.
    - apply perm_skip, IH; lia.
  Qed.
End ArrFacts.

Definition par (j : nat) : nat := (j - 1) / 2.

Lemma par_spec j : 1 <= j -> j = 2 * par j + 1 \/ j = 2 * par j + 2.
Proof.
  unfold par. intros H. pose proof (Nat.div_mod (j - 1) 2 ltac:(lia)).
  pose proof (Nat.mod_upper_bound (j - 1) 2 ltac:(lia)). lia.
Qed.

Lemma par_lt j : 1 <= j -> par j < j.
Proof. intros H. pose proof (par_spec j H). lia. Qed.

(* the second half of the array has no children: where heapify starts *)
Lemma par_half j n : 1 <= j -> j < n -> par j < n / 2.
Proof. intros H1 H2. pose proof (par_spec j H1). apply Nat.div_le_lower_bound; lia. Qed.

(* p lies in the subtree rooted at a *)
Inductive desc (a : nat) : nat -> Prop :=
| desc_refl : desc a a
| desc_child : forall p c, desc a p -> 1 <= c -> par c = p -> desc a c.

Lemma desc_ge a p : desc a p -> a <= p.
Proof. induction 1; auto. pose proof (par_lt c H0). lia. Qed.

Lemma desc_par a p : desc a p -> p <> a -> desc a (par p) /\ a <= par p < p.
Proof.
  intros H N. destruct H as [|q c Hq Hc Hp]; [congruence|]. subst q.
  split; [exact Hq|]. split; [apply desc_ge, Hq|apply par_lt, Hc].
Qed.

Section HeapFacts.
  Variable E : Type.
  Variable le : E -> E -> bool.
  Hypothesis le_total : forall a b, le a b = true \/ le b a = true.
  Hypothesis le_trans : forall a b c, le a b = true -> le b c = true -> le a c = true.

  (* every edge parent -> child whose parent index is >= lo is in order (default value d only
     matters out of range) *)
  Definition hp (d : E) (g : list E) (lo : nat) : Prop :=
    forall j, 1 <= j -> j < length g -> lo <= par j -> le (nth j g d) (nth (par j) g d) = true.

  Lemma hp_indep d d' g lo : hp d g lo -> hp d' g lo.
  Proof.
    intros H j H1 H2 H3. pose proof (par_lt j H1).
    rewrite (nth_indep g d' d) by lia. rewrite (nth_indep g d' d) by lia. auto.
  Qed.

  Lemma hp_root d g : hp d g 0 -> forall j, j < length g -> le (nth j g d) (nth 0 g d) = true.
  Proof.
    intros H j. induction j as [j IH] using lt_wf_ind. intros Hj.
    destruct j as [|j]; [apply (le_refl E le le_total)|].
    pose proof (par_lt (S j) ltac:(lia)).
    eapply le_trans; [apply H; lia|]. apply IH; lia.
  Qed.

  Lemma hp_set_nth_above d g p y lo lo' :
    hp d g lo -> lo <= lo' -> p < lo' -> hp d (set_nth g p y) lo'.
  Proof.
    intros H Hlo Hp j H1 H2 H3. rewrite set_nth_length in H2. pose proof (par_lt j H1).
    rewrite !nth_set_nth_neq by lia. apply H; auto. lia.
  Qed.

  (* one round of the first loop of _siftup_max at an inner node: the hole moves to the larger
     child, the right one unless it is missing or strictly below the left one *)
  Lemma siftup_loop_step d f g n p : 2 * p + 1 < n ->
    exists c, siftup_loop E le (S f) g n p d = siftup_loop E le f (set_nth g p (nth c g d)) n c d /\
      par c = p /\ p < c < n /\
      forall j, 1 <= j -> j < n -> par j = p -> le (nth j g d) (nth c g d) = true.
  Proof.
    intros C. cbn [siftup_loop]. rewrite (proj2 (Nat.ltb_lt _ _) C). set (l := 2 * p + 1) in *.
    eexists. split; [reflexivity|].
    assert (Hch : forall j, 1 <= j -> par j = p <-> j = l \/ j = l + 1).
    { intros j H1. pose proof (par_spec j H1). lia. }
    destruct ((l + 1 <? n) && negb (lt le (nth (l + 1) g d) (nth l g d))) eqn:B.
    - apply andb_prop in B as [R L]. apply Nat.ltb_lt in R. apply negb_true_iff in L.
      split; [apply Hch; lia|]. split; [lia|].
      intros j H1 _ H3. apply Hch in H3 as [->| ->]; auto.
      + apply (not_lt_le E le), L.
      + apply (le_refl E le le_total).
    - split; [apply Hch; lia|]. split; [lia|].
      intros j H1 H2 H3. apply Hch in H3 as [->| ->]; auto; [apply (le_refl E le le_total)|].
      apply (lt_le E le le_total).
      apply andb_false_iff in B as [R|L]; [apply Nat.ltb_ge in R; lia|apply negb_false_iff, L].
  Qed.

  Section Sift.
    Variable h : list E.          (* array before the call *)
    Variable pos : nat.           (* startpos *)
    Variable x : E.               (* newitem; also the default of nth *)
    Let n := length h.

    (* g has a hole at p: every edge from pos on is in order, except those that touch p *)
    Definition hpx (g : list E) (p : nat) : Prop :=
      forall j, 1 <= j -> j < n -> pos <= par j -> j <> p -> par j <> p ->
                le (nth j g x) (nth (par j) g x) = true.
    (* the children of the hole are at most its parent: a child's value may move up into the hole,
       or the parent's value down into it *)
    Definition below_parent (g : list E) (p : nat) : Prop :=
      p <> pos -> forall c, 1 <= c -> c < n -> par c = p -> le (nth c g x) (nth (par p) g x) = true.
    (* ... and at most x: x may be put into the hole as far as its children go *)
    Definition below_x (g : list E) (p : nat) : Prop :=
      forall c, 1 <= c -> c < n -> par c = p -> le (nth c g x) x = true.

    (* invariant of the descent to a leaf (phase 1, the first loop of _siftup_max: the hole moves
       down, each time to the larger child) *)
    Definition P1 (g : list E) (p : nat) : Prop :=
      length g = n /\ p < n /\ desc pos p /\ Permutation (set_nth g p x) h /\
      hpx g p /\ below_parent g p.
    (* invariant of the ascent of the item (phase 2, _siftdown_max: the hole moves up while its
       parent is strictly below x) *)
    Definition P2 (g : list E) (p : nat) : Prop := P1 g p /\ below_x g p.

    (* a value that is at least the children of the hole and at most its parent fills it: the edge
       j -> par j meets the hole as j, as par j, or not at all *)
    Lemma hp_fill g p y : P1 g p ->
      (forall c, 1 <= c -> c < n -> par c = p -> le (nth c g x) y = true) ->
      (p <> pos -> le y (nth (par p) g x) = true) ->
      hp x (set_nth g p y) pos.
    Proof.
      intros (Hl & Hp & _ & _ & Hx & _) Hch Hpar j H1 H2 H3. rewrite set_nth_length, Hl in H2.
      pose proof (par_lt j H1). destruct (Nat.eq_dec j p) as [->|Nj].
      - rewrite nth_set_nth_eq, nth_set_nth_neq by lia. apply Hpar. lia.
      - rewrite (nth_set_nth_neq _ g p j) by auto. destruct (Nat.eq_dec (par j) p) as [Ep|Np].
        + rewrite Ep, nth_set_nth_eq by lia. apply Hch; auto.
        + rewrite nth_set_nth_neq by auto. apply Hx; auto.
    Qed.

    Lemma place g p : P2 g p -> (p = pos \/ le x (nth (par p) g x) = true) ->
      Permutation (set_nth g p x) h /\ hp x (set_nth g p x) pos /\ length (set_nth g p x) = n.
    Proof using Type. (* neither le_total nor le_trans is used: the statement stays free of them *)
      intros [HP Hbx] Htop. split; [apply HP|]. split.
      - apply hp_fill; [exact HP|exact Hbx|]. intros N. destruct Htop; [contradiction|assumption].
      - rewrite set_nth_length. apply HP.
    Qed.

    (* the hole moves from p to r, the value at r is written into p: if that gives a heap (hp_fill),
       any position of it may be taken for the hole *)
    Lemma P1_move g p r : P1 g p -> p <> r -> r < n -> desc pos r ->
      hp x (set_nth g p (nth r g x)) pos -> P1 (set_nth g p (nth r g x)) r.
    Proof.
      intros (Hl & Hp & _ & Hperm & _) Nr Hr Hd HH.
      unfold hp in HH. rewrite set_nth_length, Hl in HH. set (g' := set_nth g p (nth r g x)) in *.
      repeat split.
      - unfold g'. rewrite set_nth_length. exact Hl.
      - exact Hr.
      - exact Hd.
      - eapply perm_trans; [|exact Hperm]. apply hole_move; auto; lia.
      - intros j H1 H2 H3 _ _. apply HH; auto.
      - intros N c H1 H2 H3. destruct (desc_par _ _ Hd N) as (_ & Hq & Hlt).
        apply (le_trans _ (nth r g' x)); [|apply HH; auto; lia].
        rewrite <- H3. apply HH; auto. rewrite H3. apply desc_ge, Hd.
    Qed.

    Lemma P1_down g p c : P1 g p -> par c = p -> p < c < n ->
      (forall j, 1 <= j -> j < n -> par j = p -> le (nth j g x) (nth c g x) = true) ->
      P1 (set_nth g p (nth c g x)) c.
    Proof.
      intros HP Hpc [Hpltc Hcn] Hcmax. pose proof HP as (_ & _ & Hd & _ & _ & Hb).
      apply P1_move; auto.
      - lia.
      - apply (desc_child _ p); auto. lia.
      - apply hp_fill; [exact HP|exact Hcmax|]. intros N. apply Hb; auto. lia.
    Qed.

    Lemma phase1 : forall fuel g p, P1 g p -> n - p <= fuel ->
      exists g' leaf, siftup_loop E le fuel g n p x = Some (g', leaf) /\ P1 g' leaf /\ n <= 2 * leaf + 1.
    Proof.
      induction fuel as [|f IH]; intros g p HP Hf.
      - destruct HP as (_ & Hp & _). lia.
      - destruct (Nat.lt_ge_cases (2 * p + 1) n) as [C|C].
        + destruct (siftup_loop_step x f g n p C) as (c & -> & Hpc & Hc & Hcmax).
          apply IH; [apply P1_down; auto|lia].
        + exists g, p. cbn [siftup_loop]. rewrite (proj2 (Nat.ltb_ge _ _) C). auto.
    Qed.

    Lemma P1_fill g p y : P1 g p -> P1 (set_nth g p y) p.
    Proof.
      intros (Hl & Hp & Hd & Hperm & Hx & Hb). repeat split.
      - rewrite set_nth_length. exact Hl.
      - exact Hp.
      - exact Hd.
      - rewrite set_nth_twice. exact Hperm.
      - intros j H1 H2 H3 H4 H5. rewrite !nth_set_nth_neq by auto. apply Hx; auto.
      - intros N c H1 H2 H3. destruct (desc_par _ _ Hd N) as (_ & _ & Hqp). pose proof (par_lt c H1).
        rewrite !nth_set_nth_neq by lia. apply Hb; auto.
    Qed.

    Lemma P2_up g p : P2 g p -> p <> pos -> le (nth (par p) g x) x = true ->
      P2 (set_nth g p (nth (par p) g x)) (par p).
    Proof.
      intros [HP Hbx] Np Hqx. pose proof HP as (Hl & Hp & Hd & _ & _ & Hb).
      destruct (desc_par _ _ Hd Np) as (Hdq & Hposq & Hqp). set (q := par p) in *.
      assert (HH : hp x (set_nth g p (nth q g x)) pos).
      { apply hp_fill; [exact HP|exact (Hb Np)|]. intros _. apply (le_refl E le le_total). }
      split; [apply P1_move; auto; lia|].
      intros c H1 H2 H3. apply (le_trans _ (nth q g x)); [|exact Hqx].
      specialize (HH c H1). rewrite H3, (nth_set_nth_neq _ g p q), set_nth_length in HH by lia.
      apply HH; lia.
    Qed.

    Lemma phase2 : forall fuel g p, P2 g p -> p < fuel ->
      exists g', siftdown_loop E le fuel g pos p x = Some g' /\
                 Permutation g' h /\ hp x g' pos /\ length g' = n.
    Proof.
      induction fuel as [|f IH]; intros g p HP Hf; [lia|].
      cbn [siftdown_loop]. fold (par p).
      destruct (pos <? p) eqn:C; [destruct (lt le (nth (par p) g x) x) eqn:L|].
      - apply Nat.ltb_lt in C. pose proof (par_lt p ltac:(lia)).
        apply IH; [apply P2_up; auto; [lia|apply (lt_le E le le_total), L]|lia].
      - eexists; split; [reflexivity|]. apply place; auto. right. apply (not_lt_le E le), L.
      - eexists; split; [reflexivity|]. apply place; auto. left.
        apply Nat.ltb_ge in C. destruct HP as [(_ & _ & Hd & _) _]. pose proof (desc_ge _ _ Hd). lia.
    Qed.
  End Sift.

  (* the default handed to nth is immaterial (hp_indep): from here on it is quantified away *)
  Definition hpa (g : list E) (lo : nat) : Prop := forall d, hp d g lo.

  Lemma siftup_spec h pos : pos < length h -> hpa h (S pos) ->
    exists h', cpy_siftup_max le h pos = Some h' /\ Permutation h h' /\ hpa h' pos.
  Proof.
    intros Hpos Hh. unfold cpy_siftup_max.
    destruct (nth_error h pos) as [x|] eqn:Ex; [|apply nth_error_None in Ex; lia].
    pose proof (set_nth_same _ h pos x) as Hx. rewrite (nth_error_nth _ _ _ Ex) in Hx.
    assert (HP1 : P1 h pos x h pos).
    { repeat split; auto.
      - constructor.
      - rewrite Hx. apply Permutation_refl.
      - intros j H1 H2 H3 H4 H5. apply (Hh x); auto. lia.
      - intros N. congruence. }
    destruct (phase1 h pos x (S (length h)) h pos HP1 ltac:(lia)) as (g & leaf & -> & HPg & Hleaf).
    assert (HP2 : P2 h pos x (set_nth g leaf x) leaf).
    { split; [apply P1_fill; auto|]. intros c H1 H2 H3. pose proof (par_spec c H1). lia. }
    destruct (phase2 h pos x (S leaf) _ leaf HP2 ltac:(lia)) as (g' & -> & Hperm & Hhp & _).
    exists g'. split; [reflexivity|]. split; [apply Permutation_sym, Hperm|].
    intros d. apply (hp_indep x d), Hhp.
  Qed.

  Lemma heapify_from_spec : forall i h, i <= length h -> hpa h i ->
    exists h', heapify_from E le i h = Some h' /\ Permutation h h' /\ hpa h' 0.
  Proof.
    induction i as [|j IH]; intros h Hi Hh; simpl.
    - exists h. auto.
    - destruct (siftup_spec h j) as (h1 & -> & Hp1 & Hh1); [lia|exact Hh|].
      destruct (IH h1) as (h' & -> & Hp' & Hh'); [rewrite <- (Permutation_length Hp1); lia|exact Hh1|].
      exists h'. rewrite Hp1. auto.
  Qed.

  Lemma cpy_hfy_spec l : exists h, cpy_heapify_max le l = Some h /\ Permutation l h /\ hpa h 0.
  Proof.
    apply heapify_from_spec.
    - apply Nat.div_le_upper_bound; lia.
    - intros d j H1 H2 H3. pose proof (par_half j _ H1 H2). lia.
  Qed.

  Lemma cpy_hrep_spec r t x : hpa (r :: t) 0 ->
    exists h, cpy_heapreplace_max le (r :: t) x = Some h /\ Permutation (x :: t) h /\ hpa h 0.
  Proof.
    intros Hinv. apply (siftup_spec (x :: t) 0); [simpl; lia|].
    intros d. apply (hp_set_nth_above d (r :: t) 0 x 0); [apply Hinv|lia|lia].
  Qed.

  Lemma hpa_root r t : hpa (r :: t) 0 -> Forall (fun y => le y r = true) t.
  Proof.
    intros H. apply Forall_forall. intros y Hy.
    destruct (In_nth t y r Hy) as (i & Hi & <-).
    apply (hp_root r (r :: t) (H r) (S i)). simpl. lia.
  Qed.
End HeapFacts.

Lemma cpy_contract {V G} (vle : V -> V -> bool) (gle : G -> G -> bool) :
  total_order vle -> total_order gle ->
  heap_contract vle gle (cpy_heapify_max (ple vle gle)) (cpy_heapreplace_max (ple vle gle)).
Proof.
  intros Hv Hg. destruct (ple_total_order V G vle gle Hv Hg) as (T & R & S).
  exists (fun h => hpa _ (ple vle gle) h 0). split; [|split].
  - intros l. apply cpy_hfy_spec; auto.
  - intros r t x. apply cpy_hrep_spec; auto.
  - intros r t. apply hpa_root; auto.
Qed.
