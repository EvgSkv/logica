(* C20 — proofs about Udf/ArgMinMax.v: sorting facts, and the K-best / arrival-order theorems of
   ArgMin (ArgMax by instantiation at the flipped orders) for every pair of heap operations that
   meets heapq's contract (permutation + "root is a maximum" invariant).  The run is followed once,
   in argmin_split: it ends with rows that [keeps] relates to the input.  Everything else is read
   off [keeps] by list reasoning. *)
From Coq Require Import List Bool ZArith Lia Permutation Sorted.
Import ListNotations.
From LV Require Import Util.ListFacts Util.SortedFacts Udf.ArgMinMax.

Lemma firstn_app_min {A} k (a b : list A) :
  length a = Nat.min k (length (a ++ b)) -> firstn k (a ++ b) = a.
Proof.
  rewrite app_length, firstn_app. intros H.
  rewrite (firstn_all2 a) by lia.
  destruct b as [|y b]; [rewrite firstn_nil; apply app_nil_r|].
  simpl in H. replace (k - length a) with 0 by lia. apply app_nil_r.
Qed.

Section SortFacts.
  Variable E : Type.
  Variable le : E -> E -> bool.
  Hypothesis le_total : forall a b, le a b = true \/ le b a = true.
  Hypothesis le_trans : forall a b c, le a b = true -> le b c = true -> le a c = true.
  Hypothesis le_antisym : forall a b, le a b = true -> le b a = true -> a = b.

  Fixpoint sorted (l : list E) : Prop :=
    match l with
    | [] => True
    | x :: t => Forall (fun y => le x y = true) t /\ sorted t
    end.

  (* [sorted] is StronglySorted: the sorting facts below are those of Util/SortedFacts.v read
     through this *)
  Lemma sorted_iff l : sorted l <-> StronglySorted (le_of le) l.
  Proof.
    induction l as [|x t IH]; simpl.
    - split; [constructor|trivial].
    - split.
      + intros [Hx Ht]. constructor; [apply IH, Ht|exact Hx].
      + intros H. apply StronglySorted_inv in H as [Ht Hx]. split; [exact Hx|apply IH, Ht].
  Qed.

  Lemma isort_perm l : Permutation (isort le l) l.
  Proof. apply (srt_perm le (insert le)); reflexivity. Qed.

  Lemma isort_length l : length (isort le l) = length l.
  Proof. apply Permutation_length, isort_perm. Qed.

  Lemma isort_sorted l : sorted (isort le l).
  Proof. apply sorted_iff, (srt_sorted le (insert le)); trivial; reflexivity. Qed.

  Lemma le_refl a : le a a = true.
  Proof. destruct (le_total a a); auto. Qed.

  Lemma lt_le a b : lt le a b = true -> le a b = true.
  Proof. unfold lt. intros H. apply negb_true_iff in H. destruct (le_total a b); congruence. Qed.

  Lemma not_lt_le a b : lt le a b = false -> le b a = true.
  Proof. apply negb_false_iff. Qed.

  Lemma sorted_perm_eq l1 l2 : sorted l1 -> sorted l2 -> Permutation l1 l2 -> l1 = l2.
  Proof. rewrite !sorted_iff. apply StronglySorted_perm_eq. intros a b _ _. apply le_antisym. Qed.

  Lemma isort_perm_eq l l' : Permutation l l' -> isort le l = isort le l'.
  Proof.
    apply (srt_perm_eq le (insert le)); trivial; try reflexivity. intros a b _ _. apply le_antisym.
  Qed.

  Lemma sorted_app a b : sorted a -> sorted b ->
    (forall x y, In x a -> In y b -> le x y = true) -> sorted (a ++ b).
  Proof. rewrite !sorted_iff. apply StronglySorted_app. Qed.

  Lemma isort_app a b : (forall x y, In x a -> In y b -> le x y = true) ->
    isort le (a ++ b) = isort le a ++ isort le b.
  Proof.
    intros H. apply sorted_perm_eq.
    - apply isort_sorted.
    - apply sorted_app; try apply isort_sorted. intros x y Hx Hy.
      apply H; eapply Permutation_in; try apply isort_perm; auto.
    - rewrite !isort_perm. reflexivity.
  Qed.

  Lemma firstn_isort_split k l a b :
    Permutation l (a ++ b) -> (forall x y, In x a -> In y b -> le x y = true) ->
    length a = Nat.min k (length l) -> firstn k (isort le l) = isort le a.
  Proof.
    intros P H L. rewrite (isort_perm_eq l (a ++ b) P), (isort_app a b H).
    apply firstn_app_min.
    rewrite app_length, !isort_length, <- app_length, <- (Permutation_length P). exact L.
  Qed.

  Lemma isort_id l : sorted l -> isort le l = l.
  Proof. intros H. apply sorted_perm_eq; auto using isort_sorted, isort_perm. Qed.
End SortFacts.
Arguments sorted {E}.

Lemma sorted_map {A B} (la : A -> A -> bool) (lb : B -> B -> bool) (f : A -> B) :
  (forall x y, la x y = true -> lb (f x) (f y) = true) ->
  forall l, sorted la l -> sorted lb (map f l).
Proof. intros M l. rewrite !sorted_iff. apply StronglySorted_map, M. Qed.

Definition total_order {A} (le : A -> A -> bool) : Prop :=
  (forall a b, le a b = true \/ le b a = true) /\
  (forall a b c, le a b = true -> le b c = true -> le a c = true) /\
  (forall a b, le a b = true -> le b a = true -> a = b).

(* what ArgMin.step uses of heapq._heapify_max / heapq._heapreplace_max (for ArgMax, at the flipped
   orders, of heapq.heapify / heapq.heapreplace): the list is permuted, and a representation
   invariant guarantees that position 0 holds a maximum of the tuple order *)
Definition heap_contract {V G} (vle : V -> V -> bool) (gle : G -> G -> bool)
  (hfy : list (V * G) -> option (list (V * G)))
  (hrep : list (V * G) -> V * G -> option (list (V * G))) : Prop :=
  exists hinv : list (V * G) -> Prop,
    (forall l, exists h, hfy l = Some h /\ Permutation l h /\ hinv h) /\
    (forall r t x, hinv (r :: t) ->
        exists h, hrep (r :: t) x = Some h /\ Permutation (x :: t) h /\ hinv h) /\
    (forall r t, hinv (r :: t) -> Forall (fun y => ple vle gle y r = true) t).

Section ArgMinFacts.
  Variables V G : Type.
  Variable vle : V -> V -> bool.
  Variable gle : G -> G -> bool.
  Variable kind : V -> bool.
  Variable hfy : list (ArgMinMax.row V G) -> option (list (ArgMinMax.row V G)).
  Variable hrep : list (ArgMinMax.row V G) -> ArgMinMax.row V G -> option (list (ArgMinMax.row V G)).

  Notation row := (ArgMinMax.row V G).
  Notation ple := (ple vle gle).

  (* stated before the order hypotheses, which [intuition] would otherwise search through *)
  Lemma ple_iff p q : ple p q = true <->
    vle (fst p) (fst q) = true /\ (vle (fst q) (fst p) = true -> gle (snd p) (snd q) = true).
  Proof.
    unfold ArgMinMax.ple. destruct (vle (fst p) (fst q)), (vle (fst q) (fst p)); intuition congruence.
  Qed.

  Lemma ple_fst p q : ple p q = true -> vle (fst p) (fst q) = true.
  Proof. intros H. apply ple_iff in H. apply H. Qed.

  Hypothesis Hv : total_order vle.
  Hypothesis Hg : total_order gle.
  Let vle_total := proj1 Hv.
  Let vle_trans := proj1 (proj2 Hv).
  Let vle_antisym := proj2 (proj2 Hv).
  Let gle_total := proj1 Hg.
  Let gle_trans := proj1 (proj2 Hg).
  Let gle_antisym := proj2 (proj2 Hg).

  Lemma vlt_ple p q : vlt vle (fst p) (fst q) = true -> ple p q = true.
  Proof.
    intros H. apply ple_iff. split; [apply (lt_le V vle vle_total), H|].
    intros C. unfold vlt in H. rewrite C in H. discriminate.
  Qed.

  Lemma ple_total p q : ple p q = true \/ ple q p = true.
  Proof.
    unfold ArgMinMax.ple.
    destruct (vle (fst p) (fst q)) eqn:A, (vle (fst q) (fst p)) eqn:B; auto.
    destruct (vle_total (fst p) (fst q)); congruence.
  Qed.

  Lemma ple_trans p q r : ple p q = true -> ple q r = true -> ple p r = true.
  Proof.
    intros [A1 B1]%ple_iff [A2 B2]%ple_iff. apply ple_iff. split; [eapply vle_trans; eauto|].
    intros C. apply (gle_trans _ (snd q)).
    - apply B1. eapply vle_trans; [exact A2|exact C].
    - apply B2. eapply vle_trans; [exact C|exact A1].
  Qed.

  Lemma ple_antisym p q : ple p q = true -> ple q p = true -> p = q.
  Proof.
    intros [A1 B1]%ple_iff [A2 B2]%ple_iff. destruct p, q; simpl in *.
    f_equal; [apply vle_antisym|apply gle_antisym]; auto.
  Qed.

  Lemma map_fst_isort l : map fst (isort ple l) = isort vle (map fst l).
  Proof.
    apply (sorted_perm_eq V vle vle_antisym).
    - apply (sorted_map ple vle fst ple_fst). apply isort_sorted; [apply ple_total|apply ple_trans].
    - apply isort_sorted; auto.
    - rewrite !isort_perm. reflexivity.
  Qed.

  Lemma ple_total_order : total_order ple.
  Proof. split; [exact ple_total|split; [exact ple_trans|exact ple_antisym]]. Qed.

  (* st keeps k rows of l (all of them if there are fewer), D the rest, and nothing in D is below
     anything in st *)
  Definition keeps (k : nat) (l st D : list row) : Prop :=
    Permutation l (st ++ D) /\
    (forall d m, In d D -> In m st -> vle (fst m) (fst d) = true) /\
    length st = Nat.min k (length l).

  Lemma keeps_perm k l l' st D : Permutation l l' -> keeps k l st D -> keeps k l' st D.
  Proof.
    intros P (HP & HD & HL). split; [|split; [exact HD|]].
    - rewrite <- P. exact HP.
    - rewrite <- (Permutation_length P). exact HL.
  Qed.

  Lemma keeps_values k l st D : keeps k l st D ->
    map fst (isort ple st) = firstn k (isort vle (map fst l)).
  Proof.
    intros (HP & HD & HL). rewrite map_fst_isort. symmetry.
    apply (firstn_isort_split V vle vle_total vle_trans vle_antisym _ _ _ (map fst D)).
    - rewrite <- map_app. apply Permutation_map, HP.
    - intros x y Hx Hy. apply in_map_iff in Hx, Hy.
      destruct Hx as (m & <- & Hm). destruct Hy as (d & <- & Hd). apply HD; auto.
    - rewrite !map_length. exact HL.
  Qed.

  Lemma keeps_distinct k l st D : keeps k l st D -> NoDup (map fst l) ->
    isort ple st = firstn k (isort ple l).
  Proof.
    intros (HP & HD & HL) Hnd. symmetry.
    apply (firstn_isort_split _ ple ple_total ple_trans ple_antisym _ _ _ D HP); auto.
    (* a kept and a discarded row cannot share their value, so "not above" is "strictly below" *)
    intros m d Hm Hd. apply vlt_ple. unfold vlt. apply negb_true_iff.
    destruct (vle (fst d) (fst m)) eqn:C; auto. exfalso.
    apply (Permutation_NoDup (Permutation_map fst HP)) in Hnd. rewrite map_app in Hnd.
    apply (proj2 (proj2 (NoDup_app_inv _ _ Hnd)) (fst m)); [apply in_map; auto|].
    rewrite (vle_antisym _ _ (HD d m Hd Hm) C). apply in_map; auto.
  Qed.

  Lemma keeps_strict k l st D st' D' : keeps k l st D -> keeps k l st' D' ->
    forall x m, In x st -> In m st -> vlt vle (fst x) (fst m) = true -> In x st'.
  Proof.
    intros HS HS' x m Hx Hm Hlt.
    assert (P : Permutation (map fst st) (map fst st')).
    { rewrite <- (isort_perm _ ple st), <- (isort_perm _ ple st').
      rewrite (keeps_values _ _ _ _ HS), (keeps_values _ _ _ _ HS'). reflexivity. }
    destruct HS as (HP & _), HS' as (HP' & HD' & _).
    assert (Hxl : In x (st' ++ D')).
    { apply (Permutation_in _ HP'), (Permutation_in _ (Permutation_sym HP)), in_or_app; auto. }
    apply in_app_or in Hxl. destruct Hxl as [|HxD]; auto. exfalso.
    apply (in_map fst), (Permutation_in _ P), in_map_iff in Hm. destruct Hm as (m' & Em & Hm').
    pose proof (HD' x m' HxD Hm') as C. rewrite Em in C.
    unfold vlt in Hlt. rewrite C in Hlt. discriminate.
  Qed.

  Notation step := (step vle kind hfy hrep).
  Notation run_from := (run_from vle kind hfy hrep).
  Notation run := (run vle kind hfy hrep).

  Definition same_kind (l : list row) : Prop := forall x y, In x l -> In y l -> kind (fst x) = kind (fst y).

  Lemma kind_test (st : list row) v : (forall m, In m st -> kind (fst m) = kind v) ->
    match st with (v0, _) :: _ => negb (Bool.eqb (kind v) (kind v0)) | [] => false end = false.
  Proof.
    destruct st as [|[v0 a0] t]; auto. intros H.
    rewrite <- (H (v0, a0) (or_introl eq_refl)). apply negb_false_iff, Bool.eqb_reflx.
  Qed.

  (* limit None (Array=): every row is kept, so the output is the plain sort *)
  Lemma run_none l : forall st, same_kind (st ++ l) ->
    run_from st (with_limit None l) = Ok (st ++ l).
  Proof.
    induction l as [|[v a] l IH]; intros st H; simpl.
    - rewrite app_nil_r; auto.
    - unfold ArgMinMax.step. rewrite (kind_test st v).
      + rewrite IH; rewrite <- app_assoc; auto.
      + intros m Hm. apply (H m (v, a)); apply in_or_app; simpl; auto.
  Qed.

  Theorem argmin_unlimited_is_sort l :
    (forall x y, In x l -> In y l -> kind (fst x) = kind (fst y)) ->
    agg vle gle kind hfy hrep None l = Ok (map snd (isort ple l)).
  Proof.
    intros H. unfold agg, ArgMinMax.run. rewrite run_none; auto.
  Qed.

  Section Contract.
    Variable hinv : list row -> Prop.
    Hypothesis hfy_spec : forall l, exists h, hfy l = Some h /\ Permutation l h /\ hinv h.
    Hypothesis hrep_spec : forall r t x, hinv (r :: t) ->
      exists h, hrep (r :: t) x = Some h /\ Permutation (x :: t) h /\ hinv h.
    Hypothesis hinv_root : forall r t, hinv (r :: t) -> Forall (fun y => ple y r = true) t.

    (* One call of step at a constant limit K, on a value of the kind of the kept rows.
       Below K rows the new row is added, and the heap is built when that makes K rows. *)
    Lemma step_grow K (st : list row) v a :
      (forall m, In m st -> kind (fst m) = kind v) -> (Z.of_nat (length st) < K)%Z ->
      exists st', step st a v (Some K) = Ok st' /\ Permutation (st ++ [(v, a)]) st' /\
                  ((Z.of_nat (length st') = K)%Z -> hinv st').
    Proof.
      intros Hk Hlt. unfold ArgMinMax.step.
      replace (K <=? 0)%Z with false by lia. rewrite (kind_test st v Hk). cbv zeta.
      destruct (Z.of_nat (length st) <? K - 1)%Z eqn:C1.
      - eexists; split; [reflexivity|split; [apply Permutation_refl|]].
        rewrite app_length; simpl; lia.
      - replace (Z.of_nat (length st) =? K - 1)%Z with true by lia.
        destruct (hfy_spec (st ++ [(v, a)])) as (h & -> & HPh & Hh). simpl. eauto.
    Qed.

    (* At K rows one row e leaves: the root r if the new value is strictly below it, else the new
       row.  Either way the kept rows stay at or below r, and r at or below e. *)
    Lemma step_full K (r : row) t v a :
      (forall m, In m (r :: t) -> kind (fst m) = kind v) ->
      Z.of_nat (length (r :: t)) = K -> hinv (r :: t) ->
      exists st' e, step (r :: t) a v (Some K) = Ok st' /\
        Permutation (e :: st') ((v, a) :: r :: t) /\ hinv st' /\
        vle (fst r) (fst e) = true /\ forall m, In m st' -> vle (fst m) (fst r) = true.
    Proof.
      intros Hk HK Hinv. pose proof (hinv_root _ _ Hinv) as Hroot. rewrite Forall_forall in Hroot.
      unfold ArgMinMax.step. rewrite (kind_test _ v Hk), HK. cbv zeta.
      assert (1 <= K)%Z by (rewrite <- HK; simpl length; lia).
      replace (K <=? 0)%Z with false by lia. replace (K <? K - 1)%Z with false by lia.
      replace (K =? K - 1)%Z with false by lia. rewrite Z.eqb_refl.
      destruct r as [v0 a0]. destruct (vlt vle v v0) eqn:Hlt.
      - destruct (hrep_spec (v0, a0) t (v, a) Hinv) as (h & -> & HPh & Hh). simpl.
        exists h, (v0, a0). split; [reflexivity|].
        split; [rewrite <- HPh; apply perm_swap|].
        split; [exact Hh|]. split; [apply (le_refl V vle vle_total)|].
        intros m Hm. apply (Permutation_in _ (Permutation_sym HPh)) in Hm. destruct Hm as [<-|Hm].
        + apply (lt_le V vle vle_total), Hlt.
        + apply (ple_fst m (v0, a0)), Hroot, Hm.
      - exists ((v0, a0) :: t), (v, a). split; [reflexivity|]. split; [apply Permutation_refl|].
        split; [exact Hinv|]. split; [apply (not_lt_le V vle), Hlt|].
        intros m [<-|Hm]; [apply (le_refl V vle vle_total)|apply (ple_fst m (v0, a0)), Hroot, Hm].
    Qed.

    Definition Inv (K : Z) (seen st : list row) : Prop :=
      exists D, keeps (Z.to_nat K) seen st D /\ ((Z.of_nat (length st) = K)%Z -> hinv st).

    Lemma step_inv K seen st v a :
      (1 <= K)%Z -> Inv K seen st -> (forall m, In m seen -> kind (fst m) = kind v) ->
      exists st', step st a v (Some K) = Ok st' /\ Inv K (seen ++ [(v, a)]) st'.
    Proof.
      intros H1 (D & (HP & HD & Hlen) & Hinv) Hk.
      assert (Hk' : forall m, In m st -> kind (fst m) = kind v).
      { intros m Hm. apply Hk, (Permutation_in _ (Permutation_sym HP)), in_or_app; auto. }
      pose proof (Permutation_length HP) as HL. rewrite app_length in HL.
      destruct (Z_lt_le_dec (Z.of_nat (length st)) K) as [C|C].
      - destruct (step_grow K st v a Hk' C) as (st' & Hs & HP' & Hh).
        exists st'. split; [exact Hs|].
        assert (D = []) by (apply length_zero_iff_nil; lia). subst D. rewrite app_nil_r in HP.
        exists []. split; [split; [|split]|exact Hh].
        + rewrite app_nil_r, HP. exact HP'.
        + intros d m [].
        + rewrite <- (Permutation_length HP'), !app_length. simpl. lia.
      - assert (HK : Z.of_nat (length st) = K) by lia. destruct st as [|r t]; [simpl in HK; lia|].
        destruct (step_full K r t v a Hk' HK (Hinv HK)) as (st' & e & Hs & HP' & Hh & Hre & Hm).
        exists st'. split; [exact Hs|].
        exists (e :: D). split; [split; [|split]|intros _; exact Hh].
        + rewrite HP, <- Permutation_cons_append, <- Permutation_middle.
          apply (Permutation_app_tail D (Permutation_sym HP')).
        + (* every kept row is at most the old root, which is at most every discarded row *)
          intros d m Hd Hm'. apply (vle_trans _ (fst r)); [apply Hm, Hm'|].
          destruct Hd as [<-|Hd]; [exact Hre|apply HD; simpl; auto].
        + apply Permutation_length in HP'. rewrite app_length. simpl length in *. lia.
    Qed.

    Lemma run_inv K : (1 <= K)%Z -> forall l seen st, Inv K seen st -> same_kind (seen ++ l) ->
      exists st', run_from st (with_limit (Some K) l) = Ok st' /\ Inv K (seen ++ l) st'.
    Proof.
      intros HK. induction l as [|[v a] l IH]; intros seen st HI Hk; simpl.
      - rewrite app_nil_r. eauto.
      - destruct (step_inv K seen st v a HK HI) as (st1 & -> & HI1).
        { intros m Hm. apply (Hk m (v, a)); apply in_or_app; simpl; auto. }
        destruct (IH (seen ++ [(v, a)]) st1 HI1) as (st' & Hr & HI').
        { rewrite <- app_assoc. exact Hk. }
        exists st'. rewrite <- app_assoc in HI'. auto.
    Qed.
  End Contract.

  Hypothesis Hc : heap_contract vle gle hfy hrep.

  Theorem argmin_split K l : (1 <= K)%Z -> same_kind l ->
    exists st D, run (with_limit (Some K) l) = Ok st /\ keeps (Z.to_nat K) l st D.
  Proof.
    intros HK Hs. destruct Hc as (hinv & C1 & C2 & C3).
    destruct (run_inv hinv C1 C2 C3 K HK l [] []) as (st & Hr & D & HS & _); [|exact Hs|eauto].
    exists []. split; [|simpl; lia]. repeat split; simpl; auto. lia.
  Qed.

  Theorem argmin_values_k_smallest K l : (1 <= K)%Z -> same_kind l ->
    exists st, run (with_limit (Some K) l) = Ok st /\
      map fst (isort ple st) = firstn (Z.to_nat K) (isort vle (map fst l)).
  Proof.
    intros HK Hs. destruct (argmin_split K l HK Hs) as (st & D & Hr & HS).
    exists st. split; [exact Hr|exact (keeps_values _ _ _ _ HS)].
  Qed.

  Theorem argmin_distinct_exact K l : (1 <= K)%Z -> same_kind l -> NoDup (map fst l) ->
    agg vle gle kind hfy hrep (Some K) l = Ok (map snd (firstn (Z.to_nat K) (isort ple l))).
  Proof.
    intros HK Hs Hn. destruct (argmin_split K l HK Hs) as (st & D & Hr & HS).
    unfold agg. rewrite Hr. unfold finalize. rewrite (keeps_distinct _ _ _ _ HS Hn). reflexivity.
  Qed.

  (* arrival order: the values of the result never depend on it; with distinct values nothing does;
     in general a kept row that is strictly better than some other kept row is kept under every
     arrival order (only rows tied at the K-th value can be exchanged). *)
  Theorem argmin_perm K l l' : (1 <= K)%Z -> same_kind l -> Permutation l l' ->
    exists st st', run (with_limit (Some K) l) = Ok st /\ run (with_limit (Some K) l') = Ok st' /\
      map fst (isort ple st) = map fst (isort ple st') /\
      (NoDup (map fst l) -> finalize vle gle st = finalize vle gle st') /\
      (forall x m, In x st -> In m st -> vlt vle (fst x) (fst m) = true -> In x st').
  Proof.
    intros HK Hs HP.
    assert (Hs' : same_kind l').
    { intros x y Hx Hy. apply Hs; eapply Permutation_in; try apply Permutation_sym, HP; auto. }
    destruct (argmin_split K l HK Hs) as (st & D & Hr & HS).
    destruct (argmin_split K l' HK Hs') as (st' & D' & Hr' & HS').
    apply (keeps_perm _ _ _ _ _ (Permutation_sym HP)) in HS'.
    exists st, st'. split; [exact Hr|]. split; [exact Hr'|]. split; [|split].
    - rewrite (keeps_values _ _ _ _ HS), (keeps_values _ _ _ _ HS'). reflexivity.
    - intros Hn. unfold finalize.
      rewrite (keeps_distinct _ _ _ _ HS Hn), (keeps_distinct _ _ _ _ HS' Hn). reflexivity.
    - exact (keeps_strict _ _ _ _ _ _ HS HS').
  Qed.
End ArgMinFacts.

Section RefHeap.
  Variable E : Type.
  Variable le : E -> E -> bool.
  Hypothesis le_total : forall a b, le a b = true \/ le b a = true.
  Hypothesis le_trans : forall a b c, le a b = true -> le b c = true -> le a c = true.

  Lemma sorted_rev l : sorted le l -> sorted (flip le) (rev l).
  Proof.
    induction l as [|x t IH]; simpl; auto. intros [Hx Ht].
    apply sorted_app; simpl; auto.
    intros a b Ha [<-|[]]. unfold flip. rewrite Forall_forall in Hx. apply Hx.
    apply in_rev; auto.
  Qed.

  (* what both operations of the reference heap return *)
  Lemma rev_isort_spec l : Permutation l (rev (isort le l)) /\ sorted (flip le) (rev (isort le l)).
  Proof.
    split; [|apply sorted_rev, isort_sorted; auto].
    eapply perm_trans; [apply Permutation_sym, isort_perm|apply Permutation_rev].
  Qed.
End RefHeap.

Lemma ref_contract {V G} (vle : V -> V -> bool) (gle : G -> G -> bool) :
  total_order vle -> total_order gle ->
  heap_contract vle gle (ref_heapify_max (ple vle gle)) (ref_heapreplace_max (ple vle gle)).
Proof.
  intros Hv Hg. destruct (ple_total_order V G vle gle Hv Hg) as (T & R & _).
  exists (sorted (flip (ple vle gle))). split; [|split].
  - intros l. eexists. split; [reflexivity|]. apply rev_isort_spec; auto.
  - intros r t x _. eexists. split; [reflexivity|]. apply rev_isort_spec; auto.
  - intros r t [H _]. exact H.
Qed.

Lemma Z_total_order : total_order Z.leb.
Proof.
  split; [|exact (conj Zle_bool_trans Zle_bool_antisym)].
  intros a b. destruct (Zle_bool_total a b); auto.
Qed.

Lemma lexle_cons x a y b :
  lexle (x :: a) (y :: b) = true <-> (x < y)%Z \/ x = y /\ lexle a b = true.
Proof.
  simpl. destruct (Z.ltb_spec x y), (Z.ltb_spec y x); intuition lia.
Qed.

Lemma lexle_total_order : total_order lexle.
Proof.
  split; [|split].
  - induction a as [|x a IH]; intros [|y b]; auto. rewrite !lexle_cons.
    destruct (Z.lt_total x y) as [|[->|]]; auto. destruct (IH b); auto.
  - induction a as [|x a IH]; intros [|y b] [|z c]; try discriminate; auto.
    intros [|[-> H1]]%lexle_cons [|[-> H2]]%lexle_cons; apply lexle_cons; try lia. right. eauto.
  - induction a as [|x a IH]; intros [|y b]; try discriminate; auto.
    intros [|[-> H1]]%lexle_cons [|[E H2]]%lexle_cons; try lia. f_equal; auto.
Qed.

Lemma sle_total_order : total_order sle.
Proof.
  destruct Z_total_order as (T & R & S), lexle_total_order as (T' & R' & S'). repeat split.
  - intros [x|x] [y|y]; simpl; auto.
  - intros [x|x] [y|y] [z|z]; simpl; auto; try discriminate; [apply R|apply R'].
  - intros [x|x] [y|y]; simpl; try discriminate; intros; f_equal; [apply S|apply S']; auto.
Qed.
