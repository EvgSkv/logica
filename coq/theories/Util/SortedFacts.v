(* Sorted lists and permutations, over an arbitrary relation.  The model has four insertion sorts
   (Exec/OrderLimit.v, Udf/ArgMinMax.v, Exec/Concertina.v, Core/Eval.v), each over its own order;
   what they share is stated here once, for any function that satisfies the two equations of
   insertion (the first three do by computation; Core/AggProofs.v brings the fourth to that form). *)
From Coq Require Import List Permutation Sorted.
Import ListNotations.

Lemma Permutation_filter {A} (f : A -> bool) l l' :
  Permutation l l' -> Permutation (filter f l) (filter f l').
Proof.
  induction 1 as [|x l l' _ IH|x y l|l l' l'' _ IH1 _ IH2]; simpl.
  - constructor.
  - destruct (f x); [apply perm_skip|]; exact IH.
  - destruct (f x), (f y); try apply Permutation_refl. apply perm_swap.
  - eapply perm_trans; eassumption.
Qed.

Lemma fold_left_perm {A B} (f : A -> B -> A) l l' : Permutation l l' ->
  (forall a x y, In x l -> In y l -> f (f a x) y = f (f a y) x) ->
  forall a, fold_left f l a = fold_left f l' a.
Proof.
  induction 1 as [|x l l' _ IH|x y l|l l' l'' P IH1 _ IH2]; intros C a; simpl.
  - reflexivity.
  - apply IH. intros b u v Hu Hv. apply C; right; assumption.
  - rewrite (C a y x); [reflexivity | left; reflexivity | right; left; reflexivity].
  - rewrite (IH1 C). apply IH2. intros b u v Hu Hv.
    apply C; eapply Permutation_in; try apply Permutation_sym; eassumption.
Qed.

(* a fold that starts from its first input, as Min, Max, ArgMin and ArgMax do; d is the answer to no input
   and k what is done with the result, so that the model's definitions are instances as they stand *)
Lemma fold1_perm {A B R} (f : A -> B -> A) (g : B -> A) (d : R) (k : A -> R) l l' : Permutation l l' ->
  (forall a x y, In x l -> In y l -> f (f a x) y = f (f a y) x) ->
  (forall x y, In x l -> In y l -> f (g x) y = f (g y) x) ->
  match l with [] => d | x :: t => k (fold_left f t (g x)) end =
  match l' with [] => d | x :: t => k (fold_left f t (g x)) end.
Proof.
  induction 1 as [|x l l' P _|x y l|l l' l'' P IH1 _ IH2]; intros C S; cbn [fold_left].
  - reflexivity.
  - f_equal. apply fold_left_perm; [exact P|]. intros a u v Hu Hv. apply C; right; assumption.
  - rewrite (S y x); [reflexivity | left; reflexivity | right; left; reflexivity].
  - rewrite (IH1 C S). apply Permutation_sym in P.
    apply IH2; intros; [apply C | apply S]; eapply Permutation_in; eassumption.
Qed.

Lemma perm_nonempty {A C} (d e : C) (l l' : list A) : Permutation l l' ->
  match l with [] => d | _ :: _ => e end = match l' with [] => d | _ :: _ => e end.
Proof.
  intros P. destruct l, l'; try reflexivity; exfalso.
  - eapply Permutation_nil_cons, P.
  - eapply Permutation_nil_cons, Permutation_sym, P.
Qed.

Section Sorted.
  Context {A : Type} (R : A -> A -> Prop).

  (* antisymmetry is only asked of the members of the list *)
  Lemma StronglySorted_perm_eq l1 : forall l2,
    (forall a b, In a l1 -> In b l1 -> R a b -> R b a -> a = b) ->
    StronglySorted R l1 -> StronglySorted R l2 -> Permutation l1 l2 -> l1 = l2.
  Proof.
    induction l1 as [|x t IH]; intros l2 Anti S1 S2 P.
    - apply Permutation_nil in P. symmetry. exact P.
    - destruct l2 as [|y u]; [apply Permutation_sym, Permutation_nil in P; discriminate|].
      apply StronglySorted_inv in S1 as [St Hx]. apply StronglySorted_inv in S2 as [Su Hy].
      rewrite Forall_forall in Hx, Hy.
      assert (E : x = y).
      { pose proof (Permutation_in _ P (or_introl eq_refl)) as [E|Ix]; [symmetry; exact E|].
        pose proof (Permutation_in _ (Permutation_sym P) (or_introl eq_refl)) as [E|Iy]; [exact E|].
        apply Anti; [left; reflexivity | right; exact Iy | apply Hx, Iy | apply Hy, Ix]. }
      subst y. f_equal. apply IH; [|exact St|exact Su|eapply Permutation_cons_inv, P].
      intros a b Ha Hb. apply Anti; right; assumption.
  Qed.

  Lemma StronglySorted_app l1 l2 : StronglySorted R l1 -> StronglySorted R l2 ->
    (forall x y, In x l1 -> In y l2 -> R x y) -> StronglySorted R (l1 ++ l2).
  Proof.
    induction 1 as [|x t _ IH Hx]; intros S2 H; simpl; [exact S2|]. constructor.
    - apply IH; [exact S2|]. intros a b Ha. apply H. right. exact Ha.
    - apply Forall_app. split; [exact Hx|]. apply Forall_forall. intros y. apply H. left. reflexivity.
  Qed.

  Lemma StronglySorted_app_inv l1 l2 : StronglySorted R (l1 ++ l2) ->
    StronglySorted R l1 /\ StronglySorted R l2 /\ forall x y, In x l1 -> In y l2 -> R x y.
  Proof.
    induction l1 as [|a l1 IH]; simpl; intros S.
    - split; [constructor|]. split; [exact S|]. intros x y [].
    - apply StronglySorted_inv in S as [S Ha]. destruct (IH S) as (S1 & S2 & H).
      apply Forall_app in Ha as [Ha1 Ha2]. split; [constructor; assumption|]. split; [exact S2|].
      intros x y [<-|Hx] Hy; [|apply H; assumption]. rewrite Forall_forall in Ha2. apply Ha2, Hy.
  Qed.

  Lemma StronglySorted_firstn k l : StronglySorted R l -> StronglySorted R (firstn k l).
  Proof. intros S. rewrite <- (firstn_skipn k l) in S. apply StronglySorted_app_inv in S. apply S. Qed.

  Lemma StronglySorted_split k l : StronglySorted R l ->
    forall x y, In x (firstn k l) -> In y (skipn k l) -> R x y.
  Proof. intros S. rewrite <- (firstn_skipn k l) in S. apply StronglySorted_app_inv in S. apply S. Qed.
End Sorted.

Lemma StronglySorted_map {A B} (R : A -> A -> Prop) (S : B -> B -> Prop) (f : A -> B) :
  (forall x y, R x y -> S (f x) (f y)) -> forall l, StronglySorted R l -> StronglySorted S (map f l).
Proof.
  intros M. induction 1 as [|x t _ IH Hx]; simpl; constructor; [exact IH|].
  apply Forall_map. eapply Forall_impl; [|exact Hx]. apply M.
Qed.

(* [ins] and [srt] stand for the model's functions, which satisfy the equations by computation *)
Section Insertion.
  Context {A : Type} (leb : A -> A -> bool) (ins : A -> list A -> list A).
  Hypothesis ins_nil : forall x, ins x [] = [x].
  Hypothesis ins_cons : forall x y t, ins x (y :: t) = if leb x y then x :: y :: t else y :: ins x t.

  Definition le_of (a b : A) : Prop := leb a b = true.

  Lemma ins_perm x l : Permutation (ins x l) (x :: l).
  Proof.
    induction l as [|y t IH]; [rewrite ins_nil; apply Permutation_refl|].
    rewrite ins_cons. destruct (leb x y); [apply Permutation_refl|].
    eapply perm_trans; [apply perm_skip, IH | apply perm_swap].
  Qed.

  Hypothesis leb_total : forall a b, leb a b = true \/ leb b a = true.
  Hypothesis leb_trans : forall a b c, leb a b = true -> leb b c = true -> leb a c = true.

  Lemma ins_sorted x l : StronglySorted le_of l -> StronglySorted le_of (ins x l).
  Proof.
    induction 1 as [|y t St IH Hy]; [rewrite ins_nil; repeat constructor|].
    rewrite ins_cons. destruct (leb x y) eqn:E.
    - constructor; [constructor; assumption|]. constructor; [exact E|].
      eapply Forall_impl; [|exact Hy]. intros z. apply leb_trans, E.
    - constructor; [exact IH|].
      eapply Permutation_Forall; [apply Permutation_sym, ins_perm|]. constructor; [|exact Hy].
      destruct (leb_total x y) as [H|H]; [congruence | exact H].
  Qed.

  Context (srt : list A -> list A).
  Hypothesis srt_nil : srt [] = [].
  Hypothesis srt_cons : forall x t, srt (x :: t) = ins x (srt t).

  Lemma srt_perm l : Permutation (srt l) l.
  Proof.
    induction l as [|x t IH]; [rewrite srt_nil; constructor|].
    rewrite srt_cons. eapply perm_trans; [apply ins_perm | apply perm_skip, IH].
  Qed.

  Lemma srt_sorted l : StronglySorted le_of (srt l).
  Proof.
    induction l as [|x t IH]; [rewrite srt_nil; constructor|]. rewrite srt_cons. apply ins_sorted, IH.
  Qed.

  Lemma srt_unique l r :
    (forall a b, In a l -> In b l -> leb a b = true -> leb b a = true -> a = b) ->
    StronglySorted le_of r -> Permutation r l -> r = srt l.
  Proof.
    intros Anti S P. apply (StronglySorted_perm_eq le_of); [|exact S|apply srt_sorted|].
    - intros a b Ha Hb. apply Anti; eapply Permutation_in; eassumption.
    - eapply perm_trans; [exact P | apply Permutation_sym, srt_perm].
  Qed.

  Lemma srt_perm_eq l l' :
    (forall a b, In a l -> In b l -> leb a b = true -> leb b a = true -> a = b) ->
    Permutation l l' -> srt l = srt l'.
  Proof.
    intros Anti P. symmetry. apply (srt_unique l (srt l') Anti (srt_sorted l')).
    eapply perm_trans; [apply srt_perm | apply Permutation_sym, P].
  Qed.
End Insertion.
