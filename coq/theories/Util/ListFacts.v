(* Boolean tests against In, = and NoDup: most of the model's `mem` and `*_eqb` functions are convertible to
   the existsb / eqb forms below; the rest is what two or more proof files need about filter, forallb, fold_left,
   NoDup and lists in dependency order and List lacks in 8.16 (a generic fact with one user stays in that user's
   file). *)
From Coq Require Import List Bool.
Import ListNotations.

Section Eqb.
  Context {A : Type} (eqb : A -> A -> bool).
  Hypothesis eqb_eq : forall a b, eqb a b = true <-> a = b.

  Lemma eqb_false_iff a b : eqb a b = false <-> a <> b.
  Proof. rewrite <- eqb_eq. symmetry. apply not_true_iff_false. Qed.

  Lemma existsb_eqb_In x l : existsb (eqb x) l = true <-> In x l.
  Proof.
    rewrite existsb_exists. split.
    - intros (y & Hy & E). apply eqb_eq in E. subst y. exact Hy.
    - intros H. exists x. split; [exact H | apply eqb_eq; reflexivity].
  Qed.

  Lemma existsb_eqb_false x l : existsb (eqb x) l = false <-> ~ In x l.
  Proof. rewrite <- existsb_eqb_In. symmetry. apply not_true_iff_false. Qed.

  Lemma list_eqb_eq (leqb : list A -> list A -> bool) :
    (forall a b, leqb a b =
       match a, b with [], [] => true | x :: a', y :: b' => eqb x y && leqb a' b' | _, _ => false end) ->
    forall a b, leqb a b = true <-> a = b.
  Proof.
    intros eqs. induction a as [|x a IH]; intros [|y b]; rewrite eqs; try (split; discriminate).
    - split; reflexivity.
    - rewrite andb_true_iff, eqb_eq, IH. split; [intros [-> ->]; reflexivity|].
      intros E. inversion E. split; reflexivity.
  Qed.
End Eqb.

(* A definition, not a lemma: the inductions over trees with lists of subtrees (ty_ind', gty_ind', pexpr_ind',
   typing_sound) recurse through it, and the guard condition is checked on its unfolding. *)
Definition Forall_all {A} {P : A -> Prop} (p : forall a, P a) : forall l, Forall P l :=
  fix all l := match l with [] => Forall_nil P | x :: l' => Forall_cons x (p x) (all l') end.

Lemma filter_length_le {A} (f : A -> bool) l : length (filter f l) <= length l.
Proof.
  induction l as [|x l IH]; simpl; [constructor|]. destruct (f x); [apply le_n_S | apply le_S]; exact IH.
Qed.

Lemma filter_length_lt {A} (f : A -> bool) x l : In x l -> f x = false -> length (filter f l) < length l.
Proof.
  induction l as [|y l IH]; [intros []|]. intros [->|Hin] Hx; cbn [filter length].
  - rewrite Hx. apply le_n_S, filter_length_le.
  - destruct (f y); [apply le_n_S | apply le_S]; exact (IH Hin Hx).
Qed.

Lemma filter_nil_iff {A} (f : A -> bool) l : filter f l = [] <-> forall x, In x l -> f x = false.
Proof.
  induction l as [|a l IH]; simpl.
  - split; [intros _ x [] | reflexivity].
  - destruct (f a) eqn:E.
    + split; [discriminate|]. intros H. rewrite (H a (or_introl eq_refl)) in E. discriminate.
    + rewrite IH. split; [intros H x [<-|Hx]; [exact E | apply H, Hx] | intros H x Hx; apply H; right; exact Hx].
Qed.

Lemma filter_all_iff {A} (f : A -> bool) l : filter f l = l <-> forall x, In x l -> f x = true.
Proof.
  split.
  - intros E x Hx. rewrite <- E in Hx. apply filter_In in Hx. apply Hx.
  - induction l as [|a l IH]; simpl; intros H; [reflexivity|]. rewrite (H a (or_introl eq_refl)).
    f_equal. apply IH. intros x Hx. apply H. right. exact Hx.
Qed.

Lemma forallb_false_witness {A} (f : A -> bool) l : forallb f l = false -> exists x, In x l /\ f x = false.
Proof.
  induction l as [|x l IH]; simpl; [discriminate|]. intros E. apply andb_false_iff in E as [E|E].
  - exists x. split; [left; reflexivity | exact E].
  - destruct (IH E) as (y & Hy & Fy). exists y. split; [right; exact Hy | exact Fy].
Qed.

Lemma fold_left_stays {A B} (f : A -> B -> A) l s : (forall x, In x l -> f s x = s) -> fold_left f l s = s.
Proof.
  intros H%Forall_forall. induction H as [|x l E _ IH]; [reflexivity|]. cbn [fold_left]. rewrite E. exact IH.
Qed.

Lemma NoDup_app {A} (l r : list A) :
  NoDup l -> NoDup r -> (forall x, In x l -> ~ In x r) -> NoDup (l ++ r).
Proof.
  intros Hl Hr D. induction Hl as [|x l Hx Hl IH]; simpl; [exact Hr|]. constructor.
  - rewrite in_app_iff. intros [H|H]; [exact (Hx H) | exact (D x (or_introl eq_refl) H)].
  - apply IH. intros y Hy. apply D. right. exact Hy.
Qed.

Lemma NoDup_app_inv {A} (l r : list A) :
  NoDup (l ++ r) -> NoDup l /\ NoDup r /\ forall x, In x l -> ~ In x r.
Proof.
  induction l as [|a l IH]; simpl; intros N; [repeat split; auto; constructor|].
  apply NoDup_cons_iff in N as [Na N]. destruct (IH N) as (Hl & Hr & D). rewrite in_app_iff in Na.
  repeat split; [constructor; tauto | exact Hr |]. intros x [<-|Hx]; auto.
Qed.

Lemma NoDup_map_inj {A B} (f : A -> B) l : NoDup (map f l) ->
  forall a b, In a l -> In b l -> f a = f b -> a = b.
Proof.
  induction l as [|x l IH]; intros ND a b Ha Hb E; [contradiction|].
  cbn [map] in ND. inversion ND as [|? ? Hnot ND']; subst.
  destruct Ha as [<-|Ha], Hb as [<-|Hb]; try reflexivity.
  - exfalso. apply Hnot. rewrite E. apply in_map, Hb.
  - exfalso. apply Hnot. rewrite <- E. apply in_map, Ha.
  - apply IH; assumption.
Qed.

(* a list in dependency order: whatever an element depends on stands before each of its occurrences *)
Section Ordered.
  Context {A : Type} (dep : A -> list A).

  Definition ordered (l : list A) : Prop := forall l1 x l2, l = l1 ++ x :: l2 -> incl (dep x) l1.

  Lemma ordered_app l l' : ordered l ->
    (forall l1 x l2, l' = l1 ++ x :: l2 -> incl (dep x) (l ++ l1)) -> ordered (l ++ l').
  Proof.
    intros T H m1 x m2 E. apply app_eq_app in E. destruct E as [k [[E1 E2]|[E1 E2]]].
    - destruct k as [|y k]; simpl in E2.
      + rewrite app_nil_r in E1. subst. rewrite <- (app_nil_r m1). exact (H [] x m2 eq_refl).
      + injection E2 as -> _. exact (T m1 y k E1).
    - subst. exact (H k x m2 eq_refl).
  Qed.

  Lemma ordered_prefix l l' : ordered (l ++ l') -> ordered l.
  Proof. intros T l1 x l2 E. apply (T l1 x (l2 ++ l')). rewrite E, <- app_assoc. reflexivity. Qed.

  Lemma ordered_insert l a l' : ordered (l ++ l') -> incl (dep a) l -> ordered (l ++ a :: l').
  Proof.
    intros T Ha. apply ordered_app; [exact (ordered_prefix _ _ T)|]. intros l1 x l2 E.
    destruct l1 as [|y l1]; injection E as <- E.
    - rewrite app_nil_r. exact Ha.
    - (* x stood behind l ++ l1 before a came in *)
      specialize (T (l ++ l1) x l2). rewrite <- app_assoc, E in T.
      intros r Hr. specialize (T eq_refl r Hr). rewrite in_app_iff in *. simpl. tauto.
  Qed.

  Lemma ordered_snoc l a : ordered l -> incl (dep a) l -> ordered (l ++ [a]).
  Proof. intros T. apply ordered_insert. rewrite app_nil_r. exact T. Qed.
End Ordered.
