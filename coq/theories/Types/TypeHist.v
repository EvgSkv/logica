(* Histories of operations on references (reference_algebra.TypeReference is a union-find style store):
   a fixed set of references, each starting as its own tree-shaped type; Unify(i, j) makes the two aliases
   denoting the meet (the code leaves two equal atoms or two lists apart: their read-backs cannot differ before
   a clash); CloseRecord(i) closes the record the reference denotes.  The model keeps, per reference, its
   class, and per class its type.  Tied to the code by props/c16.py (history stream): after every operation,
   up to the first clash, the read-back of every reference must equal `view`. *)
From Coq Require Import List Arith.
Import ListNotations.
From LV Require Import Types.TypeAlgebra.

Inductive hop := HUnify (i j : nat) | HClose (i : nat).

Record hst := { cls : list nat; tys : list ty }.

Definition hinit (ts : list ty) : hst := {| cls := seq 0 (length ts); tys := ts |}.

Fixpoint set_at (n : nat) (t : ty) (l : list ty) : list ty :=
  match n, l with
  | _, [] => []
  | O, _ :: l' => t :: l'
  | S n', x :: l' => x :: set_at n' t l'
  end.

Definition close_ty (t : ty) : ty := match t with TRec _ fs => TRec true fs | _ => t end.

Definition class_of (s : hst) (i : nat) : nat := nth i (cls s) 0.
Definition type_of (s : hst) (i : nat) : ty := nth (class_of s i) (tys s) TAny.

Definition hstep (s : hst) (o : hop) : hst :=
  match o with
  | HUnify i j =>
      let ci := class_of s i in
      let cj := class_of s j in
      if Nat.eqb ci cj then s
      else {| cls := map (fun c => if Nat.eqb c cj then ci else c) (cls s);
              tys := set_at ci (meet (type_of s i) (type_of s j)) (tys s) |}
  | HClose i => {| cls := cls s; tys := set_at (class_of s i) (close_ty (type_of s i)) (tys s) |}
  end.

Definition hrun (s : hst) (ops : list hop) : hst := fold_left hstep ops s.

(* what VeryConcreteType reads back from every reference *)
Definition view (s : hst) : list ty := map (fun c => nth c (tys s) TAny) (cls s).

(* a clash anywhere in a read-back; the comparison with the implementation stops there *)
Definition any_bad (l : list ty) : bool := existsb has_bad l.

Lemma nth_map_lt {A B} (f : A -> B) l i d d' : i < length l -> nth i (map f l) d = f (nth i l d').
Proof. intros H. rewrite (nth_indep _ d (f d')), map_nth; [reflexivity | rewrite map_length; exact H]. Qed.

(* what a unification does to the class of a reference, whether or not the two were aliases already *)
Lemma class_of_unify s a b i : i < length (cls s) ->
  class_of (hstep s (HUnify a b)) i =
  if Nat.eqb (class_of s i) (class_of s b) then class_of s a else class_of s i.
Proof.
  intros Hi. cbn [hstep]. destruct (Nat.eqb (class_of s a) (class_of s b)) eqn:E.
  - apply Nat.eqb_eq in E. destruct (Nat.eqb_spec (class_of s i) (class_of s b)); congruence.
  - exact (nth_map_lt (fun c => if Nat.eqb c (class_of s b) then class_of s a else c) (cls s) i 0 0 Hi).
Qed.

Lemma class_of_step s o i j : i < length (cls s) -> j < length (cls s) ->
  class_of s i = class_of s j -> class_of (hstep s o) i = class_of (hstep s o) j.
Proof.
  intros Hi Hj H. destruct o as [a b|a]; [|exact H].
  rewrite !class_of_unify, H by assumption. reflexivity.
Qed.

Lemma length_cls_step s o : length (cls (hstep s o)) = length (cls s).
Proof.
  destruct o as [a b|a]; cbn [hstep]; [|reflexivity].
  destruct (Nat.eqb (class_of s a) (class_of s b)); [reflexivity|]. cbn [cls]. apply map_length.
Qed.

Lemma aliases_run ops : forall s i j, i < length (cls s) -> j < length (cls s) ->
  class_of s i = class_of s j -> class_of (hrun s ops) i = class_of (hrun s ops) j.
Proof.
  induction ops as [|o ops IH]; intros s i j Hi Hj H; [exact H|]. cbn [hrun fold_left].
  apply IH; rewrite ?length_cls_step; auto. apply class_of_step; assumption.
Qed.

Lemma unify_makes_aliases s i j : i < length (cls s) -> j < length (cls s) ->
  class_of (hstep s (HUnify i j)) i = class_of (hstep s (HUnify i j)) j.
Proof.
  intros Hi Hj. rewrite !class_of_unify, Nat.eqb_refl by assumption.
  destruct (Nat.eqb (class_of s i) (class_of s j)); reflexivity.
Qed.

(* the operations that follow may be on i, on j or on anything else *)
Theorem unified_references_stay_equal s i j later :
  i < length (cls s) -> j < length (cls s) ->
  let s' := hrun (hstep s (HUnify i j)) later in type_of s' i = type_of s' j.
Proof.
  intros Hi Hj s'. unfold type_of. f_equal. unfold s'.
  apply aliases_run; rewrite ?length_cls_step; auto. apply unify_makes_aliases; assumption.
Qed.

Theorem repeated_unification_is_identity s i j :
  class_of s i = class_of s j -> hstep s (HUnify i j) = s.
Proof. intros H. cbn [hstep]. rewrite H, Nat.eqb_refl. reflexivity. Qed.

Theorem unify_then_repeat s i j : i < length (cls s) -> j < length (cls s) ->
  hstep (hstep s (HUnify i j)) (HUnify i j) = hstep s (HUnify i j) /\
  hstep (hstep s (HUnify i j)) (HUnify j i) = hstep s (HUnify i j).
Proof.
  intros Hi Hj. pose proof (unify_makes_aliases s i j Hi Hj) as H.
  split; apply repeated_unification_is_identity; [exact H | symmetry; exact H].
Qed.

Lemma nth_set_at n t l d : n < length l -> nth n (set_at n t l) d = t.
Proof.
  revert n. induction l as [|x l IH]; intros n H; [inversion H|].
  destruct n as [|n]; [reflexivity | apply IH, Nat.succ_lt_mono, H].
Qed.

Theorem unify_gives_meet s i j : i < length (cls s) -> class_of s i < length (tys s) ->
  class_of s i <> class_of s j ->
  type_of (hstep s (HUnify i j)) i = meet (type_of s i) (type_of s j).
Proof.
  intros Hi Hc Hne. unfold type_of at 1. rewrite class_of_unify by exact Hi.
  apply Nat.eqb_neq in Hne. rewrite Hne. cbn [hstep]. rewrite Hne. cbn [tys]. apply nth_set_at, Hc.
Qed.
