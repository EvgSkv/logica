(* Model of reference_algebra.UnifyListElement (the analysis of `b in a`): the element is first narrowed to a
   non-list ("Singular"), then the list is unified with [element]; the element reference is shared with the
   list, so afterwards it reads back as the element type of the list.  Tied by props/c16.py (element stream). *)
From Coq Require Import List Bool.
Import ListNotations.
From LV Require Import Types.TypeAlgebra Types.TypeAlgebraProofs.

Definition unify_list_element (a b : ty) : ty * ty :=
  let b1 := meet b TSingular in
  let a' := meet a (TList b1) in
  (a', match a' with TList e => e | _ => b1 end).

Definition scalar (g : gty) : bool := match g with GList _ => false | _ => true end.

Lemma inst_singular g : inst TSingular g = scalar g.
Proof. destruct g; reflexivity. Qed.

(* what `b in a` means: after the analysis the list reference admits exactly the lists of non-list values that
   both the old list type and the old element type admit *)
Theorem list_after_element_analysis a b : wf a = true -> wf b = true ->
  forall g, inst (fst (unify_list_element a b)) (GList g) = inst a (GList g) && (inst b g && scalar g).
Proof.
  intros Wa Wb g. unfold unify_list_element. cbn [fst].
  assert (W1 : wf (meet b TSingular) = true) by (apply meet_wf; [exact Wb | reflexivity]).
  rewrite (meet_sound a Wa (TList (meet b TSingular)) W1 (GList g)). cbn [inst].
  rewrite (meet_sound b Wb TSingular eq_refl g), inst_singular. reflexivity.
Qed.

(* and the element reference admits exactly the elements of those lists *)
Theorem element_after_element_analysis a b e : wf a = true -> wf b = true ->
  fst (unify_list_element a b) = TList e ->
  snd (unify_list_element a b) = e /\
  forall g, inst e g = inst a (GList g) && (inst b g && scalar g).
Proof.
  intros Wa Wb H. split.
  - unfold unify_list_element in *. cbn [fst snd] in *. rewrite H. reflexivity.
  - intros g. rewrite <- (list_after_element_analysis a b Wa Wb g), H. reflexivity.
Qed.

(* a list can never be an element of the analysed list: lists of lists are a clash of `in` *)
Corollary list_element_clashes a b g : wf a = true -> wf b = true ->
  inst (fst (unify_list_element a b)) (GList (GList g)) = false.
Proof. intros Wa Wb. rewrite list_after_element_analysis by assumption. cbn [scalar]. rewrite !andb_false_r. reflexivity. Qed.
