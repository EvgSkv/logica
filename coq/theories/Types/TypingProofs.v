(* Proofs about Types/Typing.v: first the constraint view of inference (on top of the C16 laws), where what is
   accepted follows from rejects_iff_unsatisfiable and independence of the order from meet_all_same_elements at
   each node; then value soundness of the ground typing judgment. *)
From Coq Require Import List Bool NArith Permutation.
Import ListNotations.
From LV Require Import Util.ListFacts Types.TypeAlgebra Types.TypeAlgebraProofs Types.TypeLaws Types.Typing.

Lemma on_In cs n t : In t (on n cs) <-> In (n, t) cs.
Proof.
  unfold on. rewrite in_map_iff. split.
  - intros [[m t'] [E H]]. simpl in E. subst t'. apply filter_In in H as [H E].
    simpl in E. apply N.eqb_eq in E. subst. exact H.
  - intros H. exists (n, t). split; [reflexivity|]. apply filter_In. split; [exact H|].
    simpl. apply N.eqb_refl.
Qed.

Lemma cs_wf_spec cs : cs_wf cs = true <-> forall n t, In (n, t) cs -> wf t = true.
Proof.
  unfold cs_wf. rewrite forallb_forall. split.
  - intros H n t Hin. apply (H (n, t) Hin).
  - intros H [n t] Hin. apply (H n t Hin).
Qed.

Lemma on_wf cs n : cs_wf cs = true -> Forall (fun t => wf t = true) (on n cs).
Proof.
  intros W. apply Forall_forall. intros t Ht. apply on_In in Ht.
  exact (proj1 (cs_wf_spec cs) W n t Ht).
Qed.

Lemma infer_wf cs n : cs_wf cs = true -> wf (infer cs n) = true.
Proof. intros W. apply fold_meet_wf; [reflexivity | apply on_wf, W]. Qed.

Lemma rejects_spec cs : rejects cs = true <-> exists n t, In (n, t) cs /\ has_bad (infer cs n) = true.
Proof.
  unfold rejects. rewrite existsb_exists. split.
  - intros [n [Hin Hb]]. apply in_map_iff in Hin as [[m t] [E Hin]]. simpl in E. subst m.
    exists n, t. split; assumption.
  - intros [n [t [Hin Hb]]]. exists n. split; [|exact Hb].
    apply in_map_iff. exists (n, t). split; [reflexivity | exact Hin].
Qed.

Lemma infer_inst_iff cs n g : cs_wf cs = true ->
  (inst (infer cs n) g = true <-> forall t, In (n, t) cs -> inst t g = true).
Proof.
  intros W. unfold infer, meet_all. rewrite fold_meet_inst by (reflexivity || apply on_wf, W).
  cbn [inst andb]. rewrite forallb_forall. split; intros H t Ht; apply H, on_In, Ht.
Qed.

Lemma accepts_iff cs :
  rejects cs = false <-> forall n t, In (n, t) cs -> has_bad (infer cs n) = false.
Proof.
  rewrite <- not_true_iff_false, rejects_spec. split.
  - intros N n t Hin. apply not_true_is_false. intros Hb. apply N. eauto.
  - intros H [n [t [Hin Hb]]]. rewrite (H n t Hin) in Hb. discriminate.
Qed.

Theorem rejects_iff_unsatisfiable cs :
  cs_wf cs = true ->
  (rejects cs = false <-> exists gm : N -> gty, forall n t, In (n, t) cs -> inst t (gm n) = true).
Proof.
  intros W. rewrite accepts_iff. split.
  - intros R. exists (fun n => wit (infer cs n)). intros n t Hin.
    apply (infer_inst_iff cs n _ W); [|exact Hin]. exact (inhabited _ (infer_wf cs n W) (R n t Hin)).
  - intros [gm H] n _ _. apply (inst_not_bad _ (gm n)), infer_inst_iff; [exact W | apply H].
Qed.

Theorem infer_complete_ground cs (gm : N -> gty) :
  cs_wf cs = true ->
  (forall n t, In (n, t) cs -> inst t (gm n) = true) ->
  rejects cs = false /\ forall n, inst (infer cs n) (gm n) = true.
Proof.
  intros W H. split; [apply rejects_iff_unsatisfiable; eauto|].
  intros n. apply infer_inst_iff; [exact W | apply H].
Qed.

(* One of the constraints of a node is its ground type itself when the column is fed by a literal, is a typed
   column of a callee or a built-in result: the checker then infers exactly that signature. *)
Theorem infer_exact_when_pinned cs (gm : N -> gty) n :
  cs_wf cs = true ->
  (forall m t, In (m, t) cs -> inst t (gm m) = true) ->
  In (n, embed (gm n)) cs ->
  has_bad (infer cs n) = false /\
  inst (infer cs n) (gm n) = true /\
  forall g, inst (infer cs n) g = true -> inst (embed (gm n)) g = true.
Proof.
  intros W H Hpin. pose proof (proj2 (infer_complete_ground cs gm W H) n) as A.
  split; [exact (inst_not_bad _ _ A) | split; [exact A|]].
  intros g Hg. exact (proj1 (infer_inst_iff cs n g W) Hg _ Hpin).
Qed.

Theorem verdict_same_constraints cs cs' :
  cs_wf cs = true -> (forall c, In c cs <-> In c cs') ->
  rejects cs = rejects cs' /\ forall n, same (infer cs n) (infer cs' n).
Proof.
  intros W H.
  assert (S : forall n, same (infer cs n) (infer cs' n)).
  { intros n. apply meet_all_same_elements; [apply on_wf, W|]. intros t. rewrite !on_In. apply H. }
  split; [|exact S].
  (* the same nodes, and a bad type at the same ones *)
  apply eq_true_iff_eq. rewrite !rejects_spec. split; intros (n & t & Hin & Hb); exists n, t.
  - split; [apply H, Hin | rewrite <- (proj1 (S n)); exact Hb].
  - split; [apply H, Hin | rewrite (proj1 (S n)); exact Hb].
Qed.

Theorem verdict_order_independent cs cs' :
  cs_wf cs = true -> Permutation cs cs' ->
  rejects cs = rejects cs' /\ forall n, same (infer cs n) (infer cs' n).
Proof.
  intros W P. apply verdict_same_constraints; [exact W|].
  intros c. exact (Permutation_in' eq_refl P).
Qed.

Theorem clash_rejected_any_order cs n a b :
  cs_wf cs = true -> In (n, a) cs -> In (n, b) cs ->
  (forall g, inst a g && inst b g = false) ->
  forall cs', Permutation cs cs' -> rejects cs' = true.
Proof.
  intros W Ha Hb Hno cs' P. rewrite <- (proj1 (verdict_order_independent cs cs' W P)).
  apply not_false_iff_true. intros [gm H]%(rejects_iff_unsatisfiable cs W).
  specialize (Hno (gm n)). rewrite (H n a Ha), (H n b Hb) in Hno. discriminate.
Qed.

Lemma embed_wf : forall g, gwf g = true -> wf (embed g) = true.
Proof.
  induction g as [a|e IH|fs IH] using gty_ind'; intros W.
  - reflexivity.
  - apply IH, W.
  - cbn [gwf] in W. apply andb_true_iff in W as [ND W]. rewrite forallb_forall in W. rewrite Forall_forall in IH.
    cbn [embed]. apply wf_rec_iff. rewrite (keys_map (fun _ => embed)). split; [apply nodupf_NoDup, ND|].
    apply Forall_map. apply Forall_forall. intros [f x] Hin. exact (IH (f, x) Hin (W (f, x) Hin)).
Qed.

Lemma embed_inst_self : forall g, gwf g = true -> inst (embed g) g = true.
Proof.
  induction g as [a|e IH|fs IH] using gty_ind'; intros W.
  - destruct a; reflexivity.
  - apply IH, W.
  - cbn [gwf] in W. apply andb_true_iff in W as [ND W]. rewrite forallb_forall in W. rewrite Forall_forall in IH.
    cbn [embed]. apply inst_rec_pointwise; [rewrite (keys_map (fun _ => embed)); apply nodupf_NoDup, ND|].
    intros f. rewrite (lookup_map (fun _ => embed)).
    destruct (lookup f fs) as [x|] eqn:E; [|exact I]. apply lookup_Some_In in E.
    exact (IH (f, x) E (W (f, x) E)).
Qed.

Lemma geqb_eq : forall a b, geqb a b = true -> a = b.
Proof.
  induction a as [x|e IH|fs IH] using gty_ind'; intros [y|e'|gs] H; try discriminate; simpl in H.
  - apply atom_eqb_eq in H. congruence.
  - f_equal. apply IH, H.
  - f_equal. revert gs H.
    induction IH as [|[f x] l Hx _ IHl]; intros [|[f' y] r] H; try discriminate; [reflexivity|].
    apply andb_true_iff in H as [[H1 H2]%andb_true_iff H3]. apply field_eqb_eq in H1.
    f_equal; [f_equal; auto | apply IHl, H3].
Qed.

Lemma all_geqb_eq l : forall r, all_geqb l r = true -> l = r.
Proof.
  induction l as [|x l IH]; intros [|y r] H; simpl in H; try discriminate; [reflexivity|].
  apply andb_true_iff in H as [H1 H2]. f_equal; [apply geqb_eq, H1 | apply IH, H2].
Qed.

(* A value and a type computed side by side: when both are there, they are related. *)
Definition agree {V T} (R : V -> T -> Prop) (ov : option V) (ot : option T) : Prop :=
  forall v t, ov = Some v -> ot = Some t -> R v t.

(* eval and type_of go through their subexpressions in the same order: where both open with a match on results
   that agree, it is enough to relate what they go on with *)
Lemma agree_bind {V1 T1 V T} {R1 : V1 -> T1 -> Prop} {R : V -> T -> Prop} {fv ft ov ot} :
  agree R1 ov ot -> (forall v t, R1 v t -> agree R (fv v) (ft t)) ->
  agree R (match ov with Some v => fv v | None => None end) (match ot with Some t => ft t | None => None end).
Proof.
  intros H1 H v t Hv Ht. destruct ov as [v1|], ot as [t1|]; try discriminate.
  exact (H _ _ (H1 _ _ eq_refl eq_refl) _ _ Hv Ht).
Qed.

Lemma agree_map_opt {A V T} (R : V -> T -> Prop) (h : A -> option V) (f : A -> option T) l :
  Forall (fun a => agree R (h a) (f a)) l -> agree (Forall2 R) (map_opt h l) (map_opt f l).
Proof.
  induction 1 as [|a l Ha Hl IH]; simpl.
  - intros vs ts [= <-] [= <-]. constructor.
  - apply (agree_bind Ha). intros v t Hvt. apply (agree_bind IH). intros vs ts Hs.
    intros vs' ts' [= <-] [= <-]. constructor; assumption.
Qed.

Lemma Forall2_nth_error {A B} (R : A -> B -> Prop) l l' :
  Forall2 R l l' -> forall i a, nth_error l i = Some a -> exists b, nth_error l' i = Some b /\ R a b.
Proof.
  induction 1 as [|a0 b0 l l' Hab H IH]; intros [|i] a Hn; simpl in *; try discriminate.
  - inversion Hn; subst. eauto.
  - apply IH, Hn.
Qed.

Lemma Forall2_In_l {A B} (R : A -> B -> Prop) l l' x :
  Forall2 R l l' -> In x l -> exists y, In y l' /\ R x y.
Proof.
  intros H [i Hi]%In_nth_error. destruct (Forall2_nth_error _ _ _ H i x Hi) as [y [Hy Hr]].
  exists y. split; [exact (nth_error_In _ _ Hy) | exact Hr].
Qed.

Definition field_rel (kv : field * val) (kg : field * gty) : Prop :=
  fst kv = fst kg /\ has_type (snd kv) (snd kg) = true.

Lemma field_rel_keys vs ts : Forall2 field_rel vs ts -> keys vs = keys ts.
Proof.
  induction 1 as [|[f v] [f' g] l l' [E _] H IH]; [reflexivity|].
  unfold keys in *. simpl in *. congruence.
Qed.

Lemma has_type_rec_intro vs ts :
  Forall2 field_rel vs ts -> nodupf (keys ts) = true -> has_type (VRec vs) (GRec ts) = true.
Proof.
  intros H ND. simpl. apply andb_true_iff. split.
  - apply forallb_forall. intros [f x] Hin.
    destruct (Forall2_In_l _ _ _ _ H Hin) as [[f' g] [Hy [E Ht]]]. simpl in E, Ht. subst f'.
    rewrite (In_lookup f g ts); [exact Ht | apply nodupf_NoDup, ND | exact Hy].
  - rewrite (field_rel_keys _ _ H). apply subsetf_spec. auto.
Qed.

Lemma has_type_field vs ts f v g :
  has_type (VRec vs) (GRec ts) = true -> lookup f vs = Some v -> lookup f ts = Some g ->
  has_type v g = true.
Proof.
  simpl. intros H Hv Hg. apply andb_true_iff in H as [H _]. rewrite forallb_forall in H.
  specialize (H (f, v) (lookup_Some_In _ _ _ Hv)). simpl in H. rewrite Hg in H. exact H.
Qed.

(* also what check_rule asks of the head of a rule: it is checked as an atom of the rule's own predicate *)
Lemma check_atom Sg Rs Gm q args : check_conj Sg Rs Gm (CAtom q args) = true ->
  exists ts, Rs q = Some ts /\ map_opt (type_of Sg Gm) args = Some ts.
Proof.
  simpl. destruct (Rs q) as [ts|]; [|discriminate].
  destruct (map_opt (type_of Sg Gm) args) as [ts'|]; [|discriminate]. intros <-%all_geqb_eq. eauto.
Qed.

Section Sound.
  Variable F : nat -> list val -> option val.
  Variable Sg : sigma.
  Variable Gm : nat -> option gty.
  Variable rho : nat -> option val.
  Hypothesis HF : fun_ok F Sg.
  Hypothesis Henv : env_ok rho Gm.

  Lemma bin_sound o va vb ta tb :
    has_type va ta = true -> has_type vb tb = true ->
    agree (fun v g => has_type v g = true) (eval_bin o va vb) (type_bin o ta tb).
  Proof.
    intros Ha Hb v g Hv Ht. destruct o; simpl in Ht.
    - destruct ta as [[]| |]; try discriminate Ht. destruct tb as [[]| |]; try discriminate Ht. injection Ht as <-.
      destruct va; try discriminate Hv. destruct vb; try discriminate Hv. injection Hv as <-. reflexivity.
    - destruct va; try discriminate Hv.
      + (* strings *)
        destruct vb; try discriminate Hv. injection Hv as <-.
        destruct ta as [[]| |]; try discriminate Ha. destruct tb as [[]| |]; try discriminate Ht.
        injection Ht as <-. reflexivity.
      + (* lists of one type *)
        destruct vb; try discriminate Hv. injection Hv as <-.
        destruct ta as [|x|]; try discriminate Ha.
        destruct (geqb (GList x) tb) eqn:E; [|discriminate]. apply geqb_eq in E as <-. injection Ht as <-.
        simpl in *. rewrite forallb_app, Ha, Hb. reflexivity.
    - destruct (geqb ta tb); [|discriminate]. injection Ht as <-.
      destruct va; try discriminate Hv. destruct vb; try discriminate Hv. injection Hv as <-. reflexivity.
    - destruct (geqb ta tb); [|discriminate]. injection Ht as <-. injection Hv as <-. reflexivity.
    - destruct ta as [[]| |]; try discriminate Ht. destruct tb as [[]| |]; try discriminate Ht. injection Ht as <-.
      destruct va; try discriminate Hv. destruct vb; try discriminate Hv. injection Hv as <-. reflexivity.
  Qed.

  (* a well-typed expression evaluates, if at all, to a value of its type *)
  Theorem typing_sound : forall e, agree (fun v g => has_type v g = true) (eval F rho e) (type_of Sg Gm e).
  Proof.
    fix IH 1. intros [z|s|b|x|o a b|e0 es|e l|fs|e f|q args]; simpl.
    1-3: intros v g [= <-] [= <-]; reflexivity.
    - intros v g Hv Hg. exact (Henv x g v Hg Hv).
    - apply (agree_bind (IH a)). intros va ta Ha. apply (agree_bind (IH b)). intros vb tb Hb.
      exact (bin_sound o va vb ta tb Ha Hb).
    - apply (agree_bind (IH e0)). intros v0 t H0.
      apply (agree_bind (agree_map_opt _ _ _ es (Forall_all IH es))). intros vs ts Hs.
      intros v g [= <-] Hg. destruct (is_list t); [discriminate|].
      destruct (forallb (geqb t) ts) eqn:C; [|discriminate]. injection Hg as <-.
      rewrite forallb_forall in C. cbn [has_type forallb]. rewrite H0.
      apply forallb_forall. intros x Hx. destruct (Forall2_In_l _ _ _ _ Hs Hx) as [t' [Ht' Hxt]].
      rewrite (geqb_eq _ _ (C t' Ht')). exact Hxt.
    - apply (agree_bind (IH e)). intros ve t _. apply (agree_bind (IH l)). intros vl tl _. intros v g Hv Hg.
      destruct tl as [|t'|]; try discriminate. destruct (geqb t' t); [|discriminate]. injection Hg as <-.
      destruct vl; try discriminate. injection Hv as <-. reflexivity.
    - apply (agree_bind (R1 := Forall2 field_rel)).
      + apply agree_map_opt, Forall_all.
        intros [f e]. apply (agree_bind (IH e)). intros v g H kv kg [= <-] [= <-]. split; [reflexivity | exact H].
      + intros vs ts H v g [= <-] Hg. destruct (nodupf (keys ts)) eqn:ND; [|discriminate]. injection Hg as <-.
        exact (has_type_rec_intro vs ts H ND).
    - apply (agree_bind (IH e)). intros ve t He v g Hv Hg.
      destruct ve as [| | | |vs]; try discriminate. destruct t as [| |ts]; try discriminate.
      exact (has_type_field _ _ _ _ _ He Hv Hg).
    - destruct (Sg q) as [[targs tres]|] eqn:Eq; [|intros v g _ [=]].
      apply (agree_bind (agree_map_opt _ _ _ args (Forall_all IH args))). intros vs ts Hs v g Hv Hg.
      destruct (all_geqb targs ts) eqn:C; [|discriminate]. injection Hg as <-. apply all_geqb_eq in C as <-.
      exact (HF _ _ _ _ _ Eq Hs Hv).
  Qed.

  Theorem rule_head_sound Rs r :
    check_rule Sg Rs Gm r = true ->
    forall row, map_opt (eval F rho) (r_head r) = Some row ->
    exists ts, Rs (r_pred r) = Some ts /\ Forall2 (fun v g => has_type v g = true) row ts.
  Proof.
    unfold check_rule. intros [_ (ts & Eq & Ets)%check_atom]%andb_true_iff row Hrow.
    exists ts. split; [exact Eq|].
    exact (agree_map_opt _ _ _ (r_head r) (Forall_all typing_sound _) row ts Hrow Ets).
  Qed.
End Sound.

Lemma map_opt_Forall2 {A B} (f : A -> option B) l :
  forall bs, map_opt f l = Some bs -> Forall2 (fun a b => f a = Some b) l bs.
Proof.
  induction l as [|a l IH]; simpl; intros bs H; [injection H as <-; constructor|].
  destruct (f a) as [b|] eqn:E; [|discriminate]. destruct (map_opt f l) as [bs'|]; [|discriminate].
  injection H as <-. constructor; [exact E | apply IH; reflexivity].
Qed.

(* where the environment hypothesis comes from: an argument of a body atom which the valuation
   satisfies (a variable x, in a rule) holds a value of the callee's column type, which the rule
   check made the argument's type *)
Theorem atom_binds F Sg Rs Gm D rho q args :
  db_ok D Rs -> sat_conj F D rho (CAtom q args) -> check_conj Sg Rs Gm (CAtom q args) = true ->
  forall i e, nth_error args i = Some e ->
  exists g v, type_of Sg Gm e = Some g /\ eval F rho e = Some v /\ has_type v g = true.
Proof.
  intros HD [row [Hrow Hsat]] (ts & Eq & Ets)%check_atom i e Hi.
  destruct (Forall2_nth_error _ _ _ Hsat i _ Hi) as [v [Hv Ev]].
  destruct (Forall2_nth_error _ _ _ (HD q ts row Eq Hrow) i _ Hv) as [g [Hg Hvg]].
  destruct (Forall2_nth_error _ _ _ (map_opt_Forall2 _ _ _ Ets) i _ Hi) as [g' [Hg' Ee]].
  exists g, v. split; [congruence | split; assumption].
Qed.

(* the two other binding forms: e in l and e == e' give e (a variable x, in a rule) a value of its type as
   soon as the other side evaluates to a value of its type (which typing_sound gives for the variables bound
   before) *)
Theorem in_binds F Sg Rs Gm D rho e l :
  (forall g v, type_of Sg Gm l = Some g -> eval F rho l = Some v -> has_type v g = true) ->
  sat_conj F D rho (CIn e l) -> check_conj Sg Rs Gm (CIn e l) = true ->
  exists g v, type_of Sg Gm e = Some g /\ eval F rho e = Some v /\ has_type v g = true.
Proof.
  intros Hl [v [vs [He [Hvs Hin]]]] C. simpl in C.
  destruct (type_of Sg Gm e) as [t|]; [|discriminate].
  destruct (type_of Sg Gm l) as [[| t' |]|]; try discriminate.
  apply geqb_eq in C. subst t'.
  exists t, v. split; [reflexivity|]. split; [exact He|].
  pose proof (Hl (GList t) (VList vs) eq_refl Hvs) as H. simpl in H.
  rewrite forallb_forall in H. apply H, Hin.
Qed.

Theorem eq_binds F Sg Rs Gm D rho e e' :
  (forall g v, type_of Sg Gm e' = Some g -> eval F rho e' = Some v -> has_type v g = true) ->
  sat_conj F D rho (CEq e e') -> check_conj Sg Rs Gm (CEq e e') = true ->
  exists g v, type_of Sg Gm e = Some g /\ eval F rho e = Some v /\ has_type v g = true.
Proof.
  intros He' [v [He Hv]] C. simpl in C.
  destruct (type_of Sg Gm e) as [t|]; [|discriminate].
  destruct (type_of Sg Gm e') as [t'|]; [|discriminate].
  apply geqb_eq in C. subst t'.
  exists t, v. split; [reflexivity|]. split; [exact He|]. apply (He' t v eq_refl Hv).
Qed.
