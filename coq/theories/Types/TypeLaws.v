(* Laws of the type meet that follow from meet_sound: clash iff no common instance,
   symmetry, idempotence, order independence. *)
From Coq Require Import List Bool Permutation.
Import ListNotations.
From LV Require Import Types.TypeAlgebra Types.TypeAlgebraProofs.

(* a canonical inhabitant of every well-formed bad-free type *)
Fixpoint wit (t : ty) : gty :=
  match t with
  | TAny | TSingular | TBad => GAtom ANum
  | TSequential => GAtom AStr
  | TAtom a => GAtom a
  | TList e => GList (wit e)
  | TRec _ fs =>
      GRec ((fix go (l : list (field * ty)) : list (field * gty) :=
               match l with [] => [] | (f, t') :: l' => (f, wit t') :: go l' end) fs)
  end.

Lemma wit_rec c fs : wit (TRec c fs) = GRec (map (fun '(f, t) => (f, wit t)) fs).
Proof. simpl; f_equal; induction fs as [|[f t] l IH]; simpl; rewrite ?IH; reflexivity. Qed.

Lemma inst_not_bad : forall t g, inst t g = true -> has_bad t = false.
Proof.
  induction t as [| | |x|e IH|c fs IH|] using ty_ind'; intros g H; try reflexivity; try discriminate.
  - destruct g; try discriminate. exact (IH _ H).
  - destruct g as [| |gs]; try discriminate. apply has_bad_rec_iff.
    apply inst_rec_iff in H as [H _]. rewrite Forall_forall in IH, H |- *. intros kv Hin.
    destruct (H kv Hin) as [g' [_ Hi]]. exact (IH kv Hin g' Hi).
Qed.

Lemma inhabited : forall t, wf t = true -> has_bad t = false -> inst t (wit t) = true.
Proof.
  induction t as [| | |x|e IH|c fs IH|] using ty_ind'; intros W Hb; try reflexivity.
  - destruct x; reflexivity.
  - simpl in *. apply IH; assumption.
  - rewrite wit_rec. apply wf_rec_iff in W as [ND W]. apply inst_rec_pointwise; [exact ND|].
    intros f. rewrite (lookup_map (fun _ => wit)).
    destruct (lookup f fs) as [t|] eqn:E; [|exact I]. apply lookup_Some_In in E.
    apply has_bad_rec_iff in Hb. rewrite Forall_forall in IH, W, Hb.
    exact (IH (f, t) E (W (f, t) E) (Hb (f, t) E)).
  - discriminate.
Qed.

Lemma has_bad_false_iff t : wf t = true -> (has_bad t = false <-> exists g, inst t g = true).
Proof.
  intros W. split; [intros E; exists (wit t); exact (inhabited t W E) | intros [g H]; exact (inst_not_bad t g H)].
Qed.

Theorem clash_iff_empty a b : wf a = true -> wf b = true ->
  (has_bad (meet a b) = true <-> forall g, inst a g && inst b g = false).
Proof.
  intros Wa Wb. rewrite <- not_false_iff_true, (has_bad_false_iff _ (meet_wf a Wa b Wb)).
  split.
  - intros N g. rewrite <- meet_sound by assumption. apply not_true_is_false. eauto.
  - intros H [g Hg]. rewrite meet_sound, H in Hg by assumption. discriminate.
Qed.

Corollary compatible_iff_common_instance a b : wf a = true -> wf b = true ->
  (compatible a b = true <-> exists g, inst a g = true /\ inst b g = true).
Proof.
  intros Wa Wb. unfold compatible. rewrite negb_true_iff, (has_bad_false_iff _ (meet_wf a Wa b Wb)).
  split; intros [g H]; exists g; [rewrite <- andb_true_iff, <- meet_sound | rewrite meet_sound, andb_true_iff]; assumption.
Qed.

(* equality as far as it can be observed: where inside a term the BadType sits is not compared *)
Definition same (s t : ty) : Prop :=
  has_bad s = has_bad t /\ forall g, inst s g = inst t g.

Lemma same_of_inst s t : wf s = true -> wf t = true ->
  (forall g, inst s g = inst t g) -> same s t.
Proof.
  intros Ws Wt H. split; [|exact H]. apply eq_true_iff_eq. rewrite <- !not_false_iff_true.
  rewrite !has_bad_false_iff by assumption. split; intros N [g Hg]; apply N; exists g; congruence.
Qed.

Theorem meet_assoc a b c : wf a = true -> wf b = true -> wf c = true ->
  same (meet (meet a b) c) (meet a (meet b c)).
Proof.
  intros Wa Wb Wc.
  pose proof (meet_wf a Wa b Wb) as Wab. pose proof (meet_wf b Wb c Wc) as Wbc.
  apply same_of_inst; try (apply meet_wf; assumption).
  intros g. rewrite (meet_sound (meet a b) Wab c Wc), (meet_sound a Wa (meet b c) Wbc).
  rewrite (meet_sound a Wa b Wb), (meet_sound b Wb c Wc). symmetry. apply andb_assoc.
Qed.

(* what a reference holds after it was unified with the constraints of l, one after another *)
Definition meet_all (l : list ty) : ty := fold_left meet l TAny.

Lemma fold_meet_wf l : forall acc, wf acc = true -> Forall (fun t => wf t = true) l ->
  wf (fold_left meet l acc) = true.
Proof.
  induction l as [|t l IH]; simpl; intros acc Wacc Wl; [exact Wacc|].
  inversion Wl; subst. apply IH; [apply meet_wf; assumption | assumption].
Qed.

Lemma fold_meet_inst l : forall acc, wf acc = true -> Forall (fun t => wf t = true) l ->
  forall g, inst (fold_left meet l acc) g = inst acc g && forallb (fun t => inst t g) l.
Proof.
  induction l as [|t l IH]; simpl; intros acc Wacc Wl g.
  - rewrite andb_true_r. reflexivity.
  - inversion Wl; subst. rewrite IH by (try apply meet_wf; assumption).
    rewrite meet_sound by assumption. rewrite andb_assoc. reflexivity.
Qed.

Theorem meet_all_same_elements l l' :
  Forall (fun t => wf t = true) l -> (forall t, In t l <-> In t l') ->
  same (meet_all l) (meet_all l').
Proof.
  intros Wl H.
  assert (Wl' : Forall (fun t => wf t = true) l').
  { rewrite Forall_forall in *. intros t Ht. apply Wl, H, Ht. }
  unfold meet_all. apply same_of_inst; try (apply fold_meet_wf; auto).
  intros g. rewrite !fold_meet_inst by auto. f_equal.
  apply eq_true_iff_eq. rewrite !forallb_forall. split; intros F t Ht; apply F, H, Ht.
Qed.

Theorem meet_order_independent l l' :
  Forall (fun t => wf t = true) l -> Permutation l l' ->
  same (meet_all l) (meet_all l').
Proof.
  intros Wl P. apply meet_all_same_elements; [exact Wl|].
  intros t. exact (Permutation_in' eq_refl P).
Qed.

(* Unifying is folding meet over the constraints met so far, so symmetry, idempotence and absorption are
   cases of: the result depends on the set of constraints only.  meet_all folds from TAny and meet TAny a
   computes to a, so meet_all [a; b] is meet a b by conversion, and likewise for the other short lists. *)
Theorem meet_comm a b : wf a = true -> wf b = true -> same (meet a b) (meet b a).
Proof.
  intros Wa Wb. apply (meet_all_same_elements [a; b] [b; a]); [auto | simpl; tauto].
Qed.

Lemma meet_self a : wf a = true -> same (meet a a) a.
Proof. intros W. apply (meet_all_same_elements [a; a] [a]); [auto | simpl; tauto]. Qed.

Theorem meet_idem a b : wf a = true -> wf b = true ->
  same (meet (meet a b) (meet a b)) (meet a b).
Proof. intros Wa Wb. exact (meet_self (meet a b) (meet_wf a Wa b Wb)). Qed.

Theorem meet_absorb a b : wf a = true -> wf b = true ->
  same (meet (meet a b) a) (meet a b) /\ same (meet (meet a b) b) (meet a b).
Proof.
  intros Wa Wb. split.
  - apply (meet_all_same_elements [a; b; a] [a; b]); [auto | simpl; tauto].
  - apply (meet_all_same_elements [a; b; b] [a; b]); [auto | simpl; tauto].
Qed.

Theorem meet_below a b : wf a = true -> wf b = true ->
  forall g, inst (meet a b) g = true -> inst a g = true /\ inst b g = true.
Proof.
  intros Wa Wb g H. rewrite meet_sound in H by assumption. apply andb_true_iff, H.
Qed.

Theorem meet_keeps_fields ca fa cb fb c fs :
  meet (TRec ca fa) (TRec cb fb) = TRec c fs ->
  forall f, In f (keys fa) \/ In f (keys fb) -> In f (keys fs).
Proof.
  rewrite meet_rec. destruct (records_ok ca cb fa fb); [|discriminate].
  intros [= _ <-] f. apply In_keys_merge.
Qed.

Theorem meet_keeps_atom x b : has_bad (meet (TAtom x) b) = false -> meet (TAtom x) b = TAtom x.
Proof. rewrite meet_atom. destruct (inst b (GAtom x)); [reflexivity | discriminate]. Qed.
