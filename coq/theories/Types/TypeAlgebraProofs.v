(* Proofs about the pure type algebra: meet keeps well-formedness and is the intersection of ground
   instances.  A record is a finite map read through lookup, and meet and inst act on it field by field:
   the record cases are argued at one field, through what lookup finds. *)
From Coq Require Import List Bool Arith.
Import ListNotations.
From LV Require Import Util.ListFacts Types.TypeAlgebra.

Section TyInd.
  Variable P : ty -> Prop.
  Hypothesis HAny : P TAny.
  Hypothesis HSing : P TSingular.
  Hypothesis HSeq : P TSequential.
  Hypothesis HAtom : forall a, P (TAtom a).
  Hypothesis HList : forall e, P e -> P (TList e).
  Hypothesis HRec : forall c fs, Forall (fun kv => P (snd kv)) fs -> P (TRec c fs).
  Hypothesis HBad : P TBad.
  Fixpoint ty_ind' (t : ty) : P t :=
    match t with
    | TAny => HAny | TSingular => HSing | TSequential => HSeq
    | TAtom a => HAtom a
    | TList e => HList e (ty_ind' e)
    | TRec c fs => HRec c fs (Forall_all (fun kv => ty_ind' (snd kv)) fs)
    | TBad => HBad
    end.
End TyInd.

Section GtyInd.
  Variable P : gty -> Prop.
  Hypothesis HAtom : forall a, P (GAtom a).
  Hypothesis HList : forall e, P e -> P (GList e).
  Hypothesis HRec : forall fs, Forall (fun kv => P (snd kv)) fs -> P (GRec fs).
  Fixpoint gty_ind' (t : gty) : P t :=
    match t with
    | GAtom a => HAtom a
    | GList e => HList e (gty_ind' e)
    | GRec fs => HRec fs (Forall_all (fun kv => gty_ind' (snd kv)) fs)
    end.
End GtyInd.

Lemma field_eqb_eq x y : field_eqb x y = true <-> x = y.
Proof.
  destruct x, y; simpl; try (split; [discriminate | congruence]);
    rewrite Nat.eqb_eq; split; congruence.
Qed.

Lemma field_eqb_refl x : field_eqb x x = true.
Proof. apply field_eqb_eq; reflexivity. Qed.

Lemma field_eqb_neq x y : field_eqb x y = false <-> x <> y.
Proof. exact (eqb_false_iff field_eqb field_eqb_eq x y). Qed.

Lemma atom_eqb_eq x y : atom_eqb x y = true <-> x = y.
Proof. destruct x, y; simpl; split; congruence. Qed.

Lemma memf_In f l : memf f l = true <-> In f l.
Proof.
  induction l as [|k l IH]; simpl.
  - split; [discriminate | tauto].
  - rewrite orb_true_iff, IH, field_eqb_eq. split; intros [H|H]; auto.
Qed.

Lemma memf_false f l : memf f l = false <-> ~ In f l.
Proof.
  rewrite <- memf_In. destruct (memf f l); split; congruence.
Qed.

Lemma subsetf_spec a b : subsetf a b = true <-> (forall f, In f a -> In f b).
Proof.
  unfold subsetf. rewrite forallb_forall. split; intros H f Hf; apply memf_In, H, Hf.
Qed.

Lemma if_closed_subsetf (c : bool) a b : (if c then subsetf a b else true) = true <-> (c = true -> incl a b).
Proof.
  destruct c; [rewrite subsetf_spec | split; [discriminate | reflexivity]].
  split; [intros H _; exact H | intros H; exact (H eq_refl)].
Qed.

Lemma nodupf_NoDup l : nodupf l = true <-> NoDup l.
Proof.
  induction l as [|k l IH]; simpl.
  - split; [constructor | reflexivity].
  - rewrite andb_true_iff, negb_true_iff, memf_false, IH. symmetry. apply NoDup_cons_iff.
Qed.

Lemma lookup_Some_In {A} f (l : list (field * A)) v : lookup f l = Some v -> In (f, v) l.
Proof.
  induction l as [|[k w] l IH]; simpl; [discriminate|].
  destruct (field_eqb f k) eqn:E.
  - apply field_eqb_eq in E. subst. intros H. inversion H. subst. left. reflexivity.
  - intros H. right. apply IH, H.
Qed.

Lemma lookup_None {A} f (l : list (field * A)) : lookup f l = None <-> ~ In f (keys l).
Proof.
  rewrite <- memf_false. induction l as [|[k w] l IH]; simpl; [tauto|].
  destruct (field_eqb f k); [split; discriminate | exact IH].
Qed.

Lemma In_keys {A} f (l : list (field * A)) : In f (keys l) <-> exists v, In (f, v) l.
Proof.
  unfold keys. rewrite in_map_iff. split.
  - intros [[k v] [H1 H2]]. simpl in H1. subst. exists v. exact H2.
  - intros [v H]. exists (f, v). split; [reflexivity | exact H].
Qed.

Lemma In_lookup {A} f v (l : list (field * A)) :
  NoDup (keys l) -> In (f, v) l -> lookup f l = Some v.
Proof.
  intros ND H. destruct (lookup f l) as [w|] eqn:E.
  - apply lookup_Some_In in E. injection (NoDup_map_inj fst l ND _ _ H E eq_refl) as ->. reflexivity.
  - apply lookup_None in E. destruct E. exact (in_map fst l _ H).
Qed.

Lemma lookup_Some_key {A} f (l : list (field * A)) v : lookup f l = Some v -> In f (keys l).
Proof. intros H. apply In_keys. exists v. apply lookup_Some_In, H. Qed.

Lemma lookup_app {A} f (l r : list (field * A)) :
  lookup f (l ++ r) = match lookup f l with Some v => Some v | None => lookup f r end.
Proof.
  induction l as [|[k v] l IH]; simpl; [reflexivity|]. destruct (field_eqb f k); [reflexivity | exact IH].
Qed.

Lemma lookup_map {A B} (h : field -> A -> B) f (l : list (field * A)) :
  lookup f (map (fun '(k, v) => (k, h k v)) l) = option_map (h f) (lookup f l).
Proof.
  induction l as [|[k v] l IH]; simpl; [reflexivity|].
  destruct (field_eqb f k) eqn:E; [|exact IH]. apply field_eqb_eq in E. subst k. reflexivity.
Qed.

Lemma lookup_filter {A} (p : field -> bool) f (l : list (field * A)) :
  lookup f (filter (fun kv => p (fst kv)) l) = if p f then lookup f l else None.
Proof.
  induction l as [|[k v] l IH]; simpl; [destruct (p f); reflexivity|].
  destruct (field_eqb f k) eqn:E.
  - apply field_eqb_eq in E. subst k. destruct (p f); simpl; [rewrite field_eqb_refl; reflexivity | exact IH].
  - destruct (p k); simpl; rewrite ?E; exact IH.
Qed.

Lemma keys_map {A B} (h : field -> A -> B) (l : list (field * A)) :
  keys (map (fun '(k, v) => (k, h k v)) l) = keys l.
Proof. induction l as [|[k v] l IH]; simpl; [reflexivity|]. f_equal. exact IH. Qed.

Lemma keys_filter {A} (p : field -> bool) (l : list (field * A)) :
  keys (filter (fun kv => p (fst kv)) l) = filter p (keys l).
Proof.
  induction l as [|[k v] l IH]; simpl; [reflexivity|]. destruct (p k); simpl; rewrite IH; reflexivity.
Qed.

Lemma wf_rec_iff c fs :
  wf (TRec c fs) = true <-> NoDup (keys fs) /\ Forall (fun kv => wf (snd kv) = true) fs.
Proof.
  simpl. rewrite andb_true_iff, nodupf_NoDup. apply and_iff_compat_l.
  induction fs as [|[k t] l IH]; simpl.
  - split; constructor.
  - rewrite andb_true_iff, IH, Forall_cons_iff. reflexivity.
Qed.

Lemma has_bad_rec_iff c fs :
  has_bad (TRec c fs) = false <-> Forall (fun kv => has_bad (snd kv) = false) fs.
Proof.
  simpl. induction fs as [|[k t] l IH]; simpl.
  - split; constructor.
  - rewrite orb_false_iff, IH, Forall_cons_iff. reflexivity.
Qed.

Lemma inst_rec_iff c fs gs :
  inst (TRec c fs) (GRec gs) = true <->
  Forall (fun kv => exists g, lookup (fst kv) gs = Some g /\ inst (snd kv) g = true) fs /\
  (c = true -> incl (keys gs) (keys fs)).
Proof.
  simpl. rewrite andb_true_iff. apply Morphisms_Prop.and_iff_morphism; [|apply if_closed_subsetf].
  induction fs as [|[k t] l IH]; simpl.
  - split; constructor.
  - rewrite andb_true_iff, IH, Forall_cons_iff. apply and_iff_compat_r. simpl.
    destruct (lookup k gs) as [g|].
    + split; [eauto | intros [g' [[= <-] H]]; exact H].
    + split; [discriminate | intros [g' [[=] _]]].
Qed.

Lemma inst_rec_keys c fs gs : inst (TRec c fs) (GRec gs) = true -> incl (keys fs) (keys gs).
Proof.
  intros [H _]%inst_rec_iff f [t Hin]%In_keys. rewrite Forall_forall in H.
  destruct (H (f, t) Hin) as [g [Hg _]]. exact (lookup_Some_key _ _ _ Hg).
Qed.

(* what a record type with distinct keys asks of one field of a ground record; c says whether it is closed *)
Definition inst_at (c : bool) (ot : option ty) (og : option gty) : Prop :=
  match ot, og with
  | Some t, Some g => inst t g = true
  | Some _, None => False
  | None, Some _ => c = false
  | None, None => True
  end.

Lemma inst_rec_pointwise c fs gs : NoDup (keys fs) ->
  (inst (TRec c fs) (GRec gs) = true <-> forall f, inst_at c (lookup f fs) (lookup f gs)).
Proof.
  intros ND. rewrite inst_rec_iff, Forall_forall. split.
  - intros [F C] f. unfold inst_at. destruct (lookup f fs) as [t|] eqn:Et.
    + destruct (F (f, t) (lookup_Some_In _ _ _ Et)) as [g [Eg Hi]]. simpl in Eg. rewrite Eg. exact Hi.
    + destruct (lookup f gs) as [g|] eqn:Eg; [|exact I]. destruct c; [|reflexivity].
      apply lookup_None in Et. destruct Et. apply (C eq_refl). exact (lookup_Some_key _ _ _ Eg).
  - intros H. split.
    + intros [f t] Hin. simpl. specialize (H f). rewrite (In_lookup _ _ _ ND Hin) in H. simpl in H.
      destruct (lookup f gs) as [g|]; [eauto | destruct H].
    + intros -> f Hf. specialize (H f). destruct (lookup f fs) eqn:Et; [exact (lookup_Some_key _ _ _ Et)|].
      destruct (lookup f gs) eqn:Eg; [discriminate H | apply lookup_None in Eg; contradiction].
Qed.

(* the fields of the meet of two records: the union of the two maps, with common fields met *)
Definition merge (fa fb : list (field * ty)) : list (field * ty) :=
  map (fun '(f, ta) => (f, match lookup f fb with Some tb => meet ta tb | None => ta end)) fa
  ++ rest_fields fa fb.

Lemma meet_rec ca fa cb fb :
  meet (TRec ca fa) (TRec cb fb) =
  if records_ok ca cb fa fb then TRec (ca || cb) (merge fa fb) else TBad.
Proof.
  simpl. destruct (records_ok ca cb fa fb); [|reflexivity]. unfold merge. do 2 f_equal.
  induction fa as [|[f t] l IH]; simpl; [reflexivity|]. rewrite IH. reflexivity.
Qed.

Lemma In_rest_fields fa fb f t :
  In (f, t) (rest_fields fa fb) <-> In (f, t) fb /\ ~ In f (keys fa).
Proof.
  unfold rest_fields. rewrite filter_In. simpl. rewrite negb_true_iff, memf_false. tauto.
Qed.

Lemma lookup_merge fa fb f :
  lookup f (merge fa fb) =
  match lookup f fa, lookup f fb with
  | Some ta, Some tb => Some (meet ta tb)
  | Some ta, None => Some ta
  | None, r => r
  end.
Proof.
  unfold merge, rest_fields. rewrite lookup_app.
  rewrite (lookup_map (fun k ta => match lookup k fb with Some tb => meet ta tb | None => ta end)).
  destruct (lookup f fa) as [ta|] eqn:E; simpl; [destruct (lookup f fb); reflexivity|].
  rewrite (lookup_filter (fun k => negb (memf k (keys fa)))).
  apply lookup_None, memf_false in E. rewrite E. reflexivity.
Qed.

Lemma keys_merge fa fb :
  keys (merge fa fb) = keys fa ++ filter (fun k => negb (memf k (keys fa))) (keys fb).
Proof.
  unfold merge, rest_fields, keys at 1. rewrite map_app. f_equal.
  - apply (keys_map (fun k ta => match lookup k fb with Some tb => meet ta tb | None => ta end)).
  - apply (keys_filter (fun k => negb (memf k (keys fa)))).
Qed.

Lemma In_keys_merge fa fb f : In f (keys (merge fa fb)) <-> In f (keys fa) \/ In f (keys fb).
Proof.
  rewrite keys_merge, in_app_iff, filter_In, negb_true_iff, memf_false.
  destruct (memf f (keys fa)) eqn:E; [apply memf_In in E | apply memf_false in E]; tauto.
Qed.

Lemma NoDup_keys_merge fa fb : NoDup (keys fa) -> NoDup (keys fb) -> NoDup (keys (merge fa fb)).
Proof.
  intros Ha Hb. rewrite keys_merge. apply NoDup_app; [exact Ha | apply NoDup_filter, Hb |].
  intros f Hf H. apply filter_In in H as [_ H]. apply negb_true_iff, memf_false in H. exact (H Hf).
Qed.

Lemma records_ok_iff ca cb fa fb :
  records_ok ca cb fa fb = true <->
  (cb = true -> incl (keys fa) (keys fb)) /\ (ca = true -> incl (keys fb) (keys fa)).
Proof.
  unfold records_ok. rewrite andb_true_iff, !if_closed_subsetf. reflexivity.
Qed.

Lemma records_ok_at ca cb fa fb f : records_ok ca cb fa fb = true ->
  (lookup f fb = None -> lookup f fa = None \/ cb = false) /\
  (lookup f fa = None -> lookup f fb = None \/ ca = false).
Proof.
  intros [Ok1 Ok2]%records_ok_iff. rewrite !lookup_None. split; intros H.
  - destruct cb; [left | right; reflexivity]. intros Hf. exact (H (Ok1 eq_refl f Hf)).
  - destruct ca; [left | right; reflexivity]. intros Hf. exact (H (Ok2 eq_refl f Hf)).
Qed.

(* an atom type has one instance, and survives the meet exactly when the other side admits it *)
Lemma meet_atom x b : meet (TAtom x) b = if inst b (GAtom x) then TAtom x else TBad.
Proof. destruct b as [| | |[]| | |]; try reflexivity; destruct x; reflexivity. Qed.

Lemma meet_wf : forall a, wf a = true -> forall b, wf b = true -> wf (meet a b) = true.
Proof.
  induction a as [| | |x|ea IH|ca fa IH|] using ty_ind'; intros Wa b Wb.
  - exact Wb.
  - destruct b; simpl; auto.
  - destruct b as [| | |y| | |]; simpl; auto. destruct y; auto.
  - rewrite meet_atom. destruct (inst b (GAtom x)); reflexivity.
  - destruct b as [| | |y|eb| |]; simpl; auto.
    simpl in Wa, Wb. specialize (IH Wa eb Wb). destruct (meet ea eb); simpl; auto.
  - destruct b as [| | |y|eb|cb fb|]; try (simpl; auto; fail).
    rewrite meet_rec. destruct (records_ok ca cb fa fb); [|reflexivity].
    apply wf_rec_iff in Wa as [NDa Wfa]. apply wf_rec_iff in Wb as [NDb Wfb].
    apply wf_rec_iff. split; [exact (NoDup_keys_merge fa fb NDa NDb)|].
    unfold merge, rest_fields. apply Forall_app. split; [|exact (incl_Forall (incl_filter _ fb) Wfb)].
    apply Forall_map. rewrite Forall_forall in IH, Wfa, Wfb |- *. intros [f ta] Hin. simpl.
    destruct (lookup f fb) as [tb|] eqn:Eb; [|exact (Wfa (f, ta) Hin)].
    exact (IH (f, ta) Hin (Wfa (f, ta) Hin) tb (Wfb (f, tb) (lookup_Some_In _ _ _ Eb))).
  - reflexivity.
Qed.

Theorem meet_sound : forall a, wf a = true -> forall b, wf b = true ->
  forall g, inst (meet a b) g = inst a g && inst b g.
Proof.
  induction a as [| | |x|ea IH|ca fa IH|] using ty_ind'; intros Wa b Wb g.
  - reflexivity.
  - (* Singular and Sequential look at the head of g only, and meet does not recurse: a finite table, of which
       every row computes *)
    destruct b, g as [[]| |]; reflexivity.
  - destruct b as [| | |[]| | |], g as [[]| |]; reflexivity.
  - rewrite meet_atom. destruct g as [z| |]; try (destruct (inst b (GAtom x)); reflexivity).
    (* g is an atom z, which is x or not *)
    simpl. destruct (atom_eqb x z) eqn:E.
    + apply atom_eqb_eq in E as <-. destruct (inst b (GAtom x)); [apply atom_eqb_eq|]; reflexivity.
    + destruct (inst b (GAtom x)); [exact E | reflexivity].
  - destruct b as [| | |y|eb|cb fb|].
    (* b is no list: the meet is a or Bad; where g is a list, b decides which, and computes when put first *)
    1-4,6-7: destruct g; try reflexivity; rewrite andb_comm; reflexivity.
    simpl in Wa, Wb. specialize (IH Wa eb Wb).
    simpl. destruct g as [z|ge|gs].
    + destruct (meet ea eb); reflexivity.
    + rewrite <- IH. destruct (meet ea eb); reflexivity.
    + destruct (meet ea eb); reflexivity.
  - destruct b as [| | |y|eb|cb fb|].
    (* b is no record: as for lists *)
    1-5,7: destruct g; try reflexivity; rewrite andb_comm; reflexivity.
    rewrite meet_rec.
    destruct g as [z|ge|gs]; try (destruct (records_ok ca cb fa fb); reflexivity).
    apply eq_true_iff_eq. rewrite andb_true_iff.
    destruct (records_ok ca cb fa fb) eqn:Eok.
    + apply wf_rec_iff in Wa as [NDa Wfa]. apply wf_rec_iff in Wb as [NDb Wfb].
      rewrite Forall_forall in IH, Wfa, Wfb.
      rewrite !inst_rec_pointwise by (assumption || apply NoDup_keys_merge; assumption).
      enough (P : forall f, inst_at (ca || cb) (lookup f (merge fa fb)) (lookup f gs) <->
                inst_at ca (lookup f fa) (lookup f gs) /\ inst_at cb (lookup f fb) (lookup f gs)).
      { split; [intros H; split; intros f; apply (P f), H | intros [Ha Hb] f; apply P; split; auto]. }
      intros f. rewrite lookup_merge. destruct (records_ok_at _ _ _ _ f Eok) as [O1 O2].
      destruct (lookup f gs) as [g|].
      2: { (* the context is cleared because tauto is slow in a large one *)
           destruct (lookup f fa), (lookup f fb); simpl; clear; tauto. }
      destruct (lookup f fa) as [ta|] eqn:Ea, (lookup f fb) as [tb|] eqn:Eb; simpl.
      * apply lookup_Some_In in Ea. apply lookup_Some_In in Eb.
        rewrite (IH (f, ta) Ea (Wfa (f, ta) Ea) tb (Wfb (f, tb) Eb)). apply andb_true_iff.
      * destruct (O1 eq_refl) as [|Hc]; [discriminate | clear - Hc; tauto].
      * destruct (O2 eq_refl) as [|Hc]; [discriminate | clear - Hc; tauto].
      * apply orb_false_iff.
    + (* a common instance would have the fields of both, and no others than the closed side's *)
      split; [discriminate|]. intros [Ha Hb].
      enough (records_ok ca cb fa fb = true) by congruence. apply records_ok_iff.
      split; intros C f Hf.
      * apply inst_rec_iff in Hb as [_ Hb]. apply (Hb C), (inst_rec_keys _ _ _ Ha), Hf.
      * apply inst_rec_iff in Ha as [_ Ha]. apply (Ha C), (inst_rec_keys _ _ _ Hb), Hf.
  - reflexivity.
Qed.
