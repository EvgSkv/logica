(* Soundness of the defect listing of Core/DialectCheck.v: for every cell of the (regenerated) dialect
   tables that is NOT in defect_cells, the instantiation the compiler performs there is total and
   yields closed text, for all closed arguments of every admissible arity; every method call fits. *)
From Coq Require Import List String Bool Arith.
Import ListNotations.
From LV Require Import Core.DialectSig Core.SqlText Core.SqlTextProofs Core.DialectCheck.
From LVGen Require Import DialectTables.
Local Open Scope string_scope.

(* What defects_of lists, as a predicate: the model's check of cell c of dialect d fails. *)
Inductive defect (d : dialect) : cell -> Prop :=
| defect_method cs : In cs call_sites -> method_ok d cs = false -> defect d (d_key d, "method", cs_method cs)
| defect_function n : In n (function_names d) -> function_ok d n = false -> defect d (d_key d, "function", n)
| defect_infix n : In n (infix_names d) -> infix_ok d n = false -> defect d (d_key d, "infix", n)
| defect_analytic n : In n (map fst ql_analytic) -> analytic_ok d n = false -> defect d (d_key d, "analytic", n)
| defect_unnest : unnest_ok d = false -> defect d (d_key d, "phrase", "UnnestPhrase")
| defect_array : array_ok d = false -> defect d (d_key d, "phrase", "ArrayPhrase")
| defect_subscript : subscript_ok d = false -> defect d (d_key d, "subscript-format", "Subscript").

Section Segments.
Variables (A : Type) (ok : A -> bool) (mk : A -> cell) (P : cell -> Prop).

Lemma listed_In : forall l x, In x l -> ok x = false -> In (mk x) (map mk (filter (fun y => negb (ok y)) l)).
Proof. intros l x Hin Hok. apply in_map, filter_In. rewrite Hok. split; [exact Hin | reflexivity]. Qed.

Lemma listed_Forall : forall l,
  (forall x, In x l -> ok x = false -> P (mk x)) -> Forall P (map mk (filter (fun y => negb (ok y)) l)).
Proof.
  intros l H. apply Forall_map, Forall_forall. intros x Hx. apply filter_In in Hx as [Hin Hx].
  apply H, negb_true_iff, Hx. exact Hin.
Qed.

Lemma flag_In : forall (b : bool) (c : cell), b = false -> In c (if b then [] else [c]).
Proof. intros b c ->. left. reflexivity. Qed.

Lemma flag_Forall : forall (b : bool) c, (b = false -> P c) -> Forall P (if b then [] else [c]).
Proof. intros [|] c H; constructor; [apply H; reflexivity | constructor]. Qed.

Lemma in_segment : forall {c : cell} {l1 l2 l3 l4 l5 l6 l7} i {l},
  nth_error [l1; l2; l3; l4; l5; l6; l7] i = Some l -> In c l -> In c (l1 ++ l2 ++ l3 ++ l4 ++ l5 ++ l6 ++ l7).
Proof.
  intros c l1 l2 l3 l4 l5 l6 l7 i l E H. apply nth_error_In in E.
  repeat (apply in_or_app; destruct E as [<-|E]; [left; exact H | right]).
  destruct E as [<-|[]]. exact H.
Qed.

Lemma Forall_segments : forall l1 l2 l3 l4 l5 l6 l7,
  Forall P l1 -> Forall P l2 -> Forall P l3 -> Forall P l4 -> Forall P l5 -> Forall P l6 -> Forall P l7 ->
  Forall P (l1 ++ l2 ++ l3 ++ l4 ++ l5 ++ l6 ++ l7).
Proof. intros. repeat (apply Forall_app; split; [assumption|]). assumption. Qed.
End Segments.

(* defects_of is taken apart in the goal only, by lemmas stated for arbitrary segments (Section Segments): as a
   hypothesis under in_app_or, or with in_or_app applied to its own segments, the kernel or the unifier evaluates
   `filter _ call_sites` with the check stuck on d. *)
Lemma defects_of_spec : forall d c, In c (defects_of d) <-> defect d c.
Proof.
  intros d c. split.
  - revert c. apply Forall_forall, Forall_segments.
    + apply listed_Forall, defect_method.
    + apply listed_Forall, defect_function.
    + apply listed_Forall, defect_infix.
    + apply listed_Forall, defect_analytic.
    + apply flag_Forall, defect_unnest.
    + apply flag_Forall, defect_array.
    + apply flag_Forall, defect_subscript.
  - intros [x Hin E|x Hin E|x Hin E|x Hin E|E|E|E].
    + exact (in_segment 0 eq_refl (listed_In _ _ _ _ x Hin E)).
    + exact (in_segment 1 eq_refl (listed_In _ _ _ _ x Hin E)).
    + exact (in_segment 2 eq_refl (listed_In _ _ _ _ x Hin E)).
    + exact (in_segment 3 eq_refl (listed_In _ _ _ _ x Hin E)).
    + exact (in_segment 4 eq_refl (flag_In _ _ E)).
    + exact (in_segment 5 eq_refl (flag_In _ _ E)).
    + exact (in_segment 6 eq_refl (flag_In _ _ E)).
Qed.

Theorem defect_cells_spec : forall c, In c defect_cells <-> exists d, In d dialects /\ defect d c.
Proof.
  intros c. apply (iff_trans (in_flat_map defects_of dialects c)).
  split; intros (d & Hd & Hc); exists d.
  - exact (conj Hd (proj1 (defects_of_spec d c) Hc)).
  - exact (conj Hd (proj2 (defects_of_spec d c) Hc)).
Qed.

Lemma unlisted_ok : forall d c (b : bool),
  In d dialects -> ~ In c defect_cells -> (b = false -> defect d c) -> b = true.
Proof.
  intros d c b Hd Hnot H. apply not_false_is_true. intros E. apply Hnot.
  (* proj2: `apply` on the iff lets the unifier evaluate defect_cells *)
  apply (proj2 (defect_cells_spec c)). exists d. auto.
Qed.

Lemma find_key_In {A} (key : A -> string) k l x :
  find (fun y => String.eqb (key y) k) l = Some x -> In x l /\ key x = k.
Proof. intros H. apply find_some in H as [Hin He]. apply String.eqb_eq in He. split; assumption. Qed.

Lemma assoc_In k l v : assoc k l = Some v -> In (k, v) l.
Proof.
  unfold assoc. destruct (find _ l) as [[k' v']|] eqn:E; [|discriminate].
  intros [= <-]. apply find_key_In in E as [Hin <-]. exact Hin.
Qed.

Lemma assoc_app k l1 l2 : assoc k (l1 ++ l2) = match assoc k l1 with Some v => Some v | None => assoc k l2 end.
Proof.
  unfold assoc. induction l1 as [|p l1 IH]; [reflexivity|]. cbn [app find].
  destruct (String.eqb (fst p) k); [reflexivity | exact IH].
Qed.

Lemma assoc_map {A} (f : A -> string * string) k l :
  assoc k (map f l) = option_map (fun x => snd (f x)) (find (fun x => String.eqb (fst (f x)) k) l).
Proof.
  unfold assoc. induction l as [|x l IH]; [reflexivity|]. cbn [map find].
  destruct (String.eqb (fst (f x)) k); [reflexivity | exact IH].
Qed.

(* QL.__init__ updates the bulk dictionary by BUILT_IN_FUNCTIONS and the result by the dialect's: a lookup in
   what comes out is the first hit in the three tables, the latest update first. *)
Lemma eff_function_assoc d n :
  eff_function d n = assoc n (d_functions d ++ ql_functions ++ map (fun b => (bf_name b, bf_template b)) bulk_functions).
Proof. rewrite !assoc_app, assoc_map. reflexivity. Qed.

Lemma eff_infix_assoc d n : eff_infix d n = assoc n (d_infix d ++ ql_infix).
Proof. rewrite assoc_app. reflexivity. Qed.

Lemma eff_function_name d n t : eff_function d n = Some t -> In n (function_names d).
Proof.
  rewrite eff_function_assoc. intros H. apply assoc_In, (in_map fst) in H.
  rewrite !map_app, map_map in H. exact H.
Qed.

Lemma eff_infix_name d n t : eff_infix d n = Some t -> In n (infix_names d).
Proof.
  rewrite eff_infix_assoc. intros H. apply assoc_In, (in_map fst) in H. rewrite map_app in H. exact H.
Qed.

(* built-in and bulk functions: QL.Function on the template the dialect ends up with *)
Theorem function_cell_sound : forall d name tpl lo hi args,
  In d dialects -> ~ In (d_key d, "function", name) defect_cells ->
  eff_function d name = Some tpl -> arity_of name = Some (lo, hi) ->
  (lo <= List.length args)%nat -> Forall (closed (qs_of d)) args ->
  exists out, inst_function (bytes tpl) args = Some out /\ closed (qs_of d) out.
Proof.
  intros d name tpl lo hi args Hd Hnot Ht Ha Hlo Hargs.
  assert (Hok := unlisted_ok d _ _ Hd Hnot (defect_function d name (eff_function_name d name tpl Ht))).
  unfold function_ok in Hok. rewrite Ht, Ha in Hok.
  apply (function_inst_ok (qs_of d) (bytes tpl) lo args Hok Hlo Hargs).
Qed.

Theorem infix_cell_sound : forall d name tpl l r,
  In d dialects -> ~ In (d_key d, "infix", name) defect_cells ->
  eff_infix d name = Some tpl -> closed (qs_of d) l -> closed (qs_of d) r ->
  exists out, inst_infix (bytes tpl) l r = Some out /\ closed (qs_of d) out.
Proof.
  intros d name tpl l r Hd Hnot Ht Hl Hr.
  assert (Hok := unlisted_ok d _ _ Hd Hnot (defect_infix d name (eff_infix_name d name tpl Ht))).
  unfold infix_ok in Hok. rewrite Ht in Hok.
  apply (infix_inst_ok (qs_of d) (bytes tpl) l r Hok Hl Hr).
Qed.

Theorem analytic_cell_sound : forall d name tpl args,
  In d dialects -> ~ In (d_key d, "analytic", name) defect_cells ->
  assoc name ql_analytic = Some tpl -> List.length args = analytic_nargs name ->
  Forall (closed (qs_of d)) args ->
  exists out, inst_format (bytes tpl) args = Some out /\ closed (qs_of d) out.
Proof.
  intros d name tpl args Hd Hnot Ht Hn Hargs.
  assert (Hok := unlisted_ok d _ _ Hd Hnot (defect_analytic d name (in_map fst _ _ (assoc_In name ql_analytic tpl Ht)))).
  unfold analytic_ok in Hok. rewrite Ht, <- Hn in Hok.
  apply (format_inst_ok (qs_of d) (bytes tpl) args Hok Hargs).
Qed.

Theorem unnest_cell_sound : forall d lst el,
  In d dialects -> ~ In (d_key d, "phrase", "UnnestPhrase") defect_cells ->
  closed (qs_of d) lst -> closed (qs_of d) el ->
  exists out, inst_format (bytes (d_unnest d)) [lst; el] = Some out /\ closed (qs_of d) out.
Proof.
  intros d lst el Hd Hnot Hl He.
  assert (Hok := unlisted_ok d _ _ Hd Hnot (defect_unnest d)).
  apply (format_inst_ok (qs_of d) (bytes (d_unnest d)) [lst; el] Hok). repeat constructor; assumption.
Qed.

Theorem array_cell_sound : forall d internals,
  In d dialects -> ~ In (d_key d, "phrase", "ArrayPhrase") defect_cells ->
  closed (qs_of d) internals ->
  exists out, inst_percent (bytes (d_array d)) [internals] = Some out /\ closed (qs_of d) out.
Proof.
  intros d internals Hd Hnot Hi.
  assert (Hok := unlisted_ok d _ _ Hd Hnot (defect_array d)).
  apply (percent_inst_ok (qs_of d) no_allow (bytes (d_array d)) [internals] Hok).
  intros i a. apply closed_args. constructor; [exact Hi | constructor].
Qed.

(* dialect.Subscript: the record argument closed, every other argument (field name, col<N>, * ) inert *)
Theorem subscript_cell_sound : forall d sf args,
  In d dialects -> ~ In (d_key d, "subscript-format", "Subscript") defect_cells ->
  In sf (d_subscript d) -> List.length args = List.length (sf_args sf) ->
  (forall i a, nth_error args i = Some a -> arg_ok (qs_of d) (allow_sub sf) (KIdx i) a) ->
  exists out, inst_percent (bytes (sf_format sf)) args = Some out /\ closed (qs_of d) out.
Proof.
  intros d sf args Hd Hnot Hsf Hn Hargs.
  assert (Hok := unlisted_ok d _ _ Hd Hnot (defect_subscript d)).
  unfold subscript_ok in Hok. rewrite forallb_forall in Hok. specialize (Hok sf Hsf).
  unfold subscript_format_ok in Hok. rewrite <- Hn in Hok.
  apply (percent_inst_ok (qs_of d) (allow_sub sf) (bytes (sf_format sf)) args Hok Hargs).
Qed.

(* A call of a dialect method that does not fit the method's `def` is a Python TypeError inside the compiler,
   an internal error and not a diagnostic. *)
Theorem method_cell_sound : forall d cs,
  In d dialects -> In cs call_sites -> ~ In (d_key d, "method", cs_method cs) defect_cells ->
  exists m, In m (d_methods d) /\ ms_name m = cs_method cs /\
            (ms_min m <= cs_nargs cs)%nat /\ (cs_nargs cs <= ms_max m)%nat.
Proof.
  intros d cs Hd Hcs Hnot.
  assert (Hok := unlisted_ok d _ _ Hd Hnot (defect_method d cs Hcs)).
  unfold method_ok in Hok.
  destruct (find (fun m => String.eqb (ms_name m) (cs_method cs)) (d_methods d)) as [m|] eqn:E; [|discriminate].
  apply find_key_In in E as [Hin He].
  apply andb_true_iff in Hok. destruct Hok as [H1 H2]. apply Nat.leb_le in H1. apply Nat.leb_le in H2.
  exists m. repeat split; assumption.
Qed.

(* defect_cells_spec from right to left, for three of the seven kinds *)
Theorem defect_cells_complete : forall d, In d dialects ->
  (forall cs, In cs call_sites -> method_ok d cs = false -> In (d_key d, "method", cs_method cs) defect_cells) /\
  (forall n, In n (function_names d) -> function_ok d n = false -> In (d_key d, "function", n) defect_cells) /\
  (forall n, In n (infix_names d) -> infix_ok d n = false -> In (d_key d, "infix", n) defect_cells).
Proof.
  intros d Hd.
  assert (listed : forall c, defect d c -> In c defect_cells).
  { intros c Hc. apply (proj2 (defect_cells_spec c)). exists d. split; assumption. }
  split; [|split]; intros x Hin Hf; apply listed.
  - exact (defect_method d x Hin Hf).
  - exact (defect_function d x Hin Hf).
  - exact (defect_infix d x Hin Hf).
Qed.

Lemma forallb_guard {A} (g h : A -> bool) l : forallb (fun x => negb (g x) || h x) l = forallb h (filter g l).
Proof.
  induction l as [|x l IH]; [reflexivity|]. cbn [forallb filter].
  destruct (g x); cbn [negb orb forallb]; rewrite IH; reflexivity.
Qed.

(* Every template is looked at once, as an entry of its table, not once per name that may reach it. *)
Theorem duckdb_templates_no_backslash : duckdb_no_backslash = true.
Proof.
  unfold duckdb_no_backslash. rewrite forallb_guard.
  (* the keys alone say which dialects are looked at *)
  change (filter _ dialects) with [dialect_duckdb].
  cbn [forallb]. rewrite andb_true_r.
  (* the five conjuncts duckdb_no_backslash asks of a dialect, in its order; four rewrites and not `!`, whose
     last, failing attempt would evaluate the tables *)
  rewrite 4 andb_true_iff. split; [split; [split; [split|]|]|].
  - (* the function templates *) apply forallb_forall. intros n _. rewrite eff_function_assoc.
    destruct (assoc n _) as [t|] eqn:E; [|reflexivity].
    apply assoc_In, (in_map snd) in E. revert t E. apply forallb_forall. vm_compute. reflexivity.
  - (* the infix templates *) apply forallb_forall. intros n _. rewrite eff_infix_assoc.
    destruct (assoc n _) as [t|] eqn:E; [|reflexivity].
    apply assoc_In, (in_map snd) in E. revert t E. apply forallb_forall. vm_compute. reflexivity.
  - (* d_unnest dialect_duckdb, evaluated *) reflexivity.
  - (* d_array dialect_duckdb, evaluated *) reflexivity.
  - (* the formats of d_subscript dialect_duckdb, evaluated *) reflexivity.
Qed.

(* the eight engines the property names *)
Theorem engines_present :
  forallb (fun k => mem_string k engine_keys)
          ["sqlite"; "duckdb"; "psql"; "bigquery"; "trino"; "presto"; "clickhouse"; "databricks"] = true.
Proof. vm_compute. reflexivity. Qed.
