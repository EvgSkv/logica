(* For-all lemmas about Core/SqlText.v: the scanning automaton is compositional, closed texts can be
   concatenated / parenthesised / joined, string literals are closed, and instantiating a template whose
   holes stand outside literals with closed arguments gives exactly the state the template alone gives. *)
From Coq Require Import List NArith Bool Arith.
Import ListNotations.
From LV Require Import Util.ListFacts Core.SqlText.
Local Open Scope N_scope.

Lemma scan_app : forall qs a b s,
  scan qs s (a ++ b) = match scan qs s a with Some s' => scan qs s' b | None => None end.
Proof.
  induction a as [|c a IH]; intros b s; simpl; [reflexivity|].
  destruct (step qs s c); [apply IH|reflexivity].
Qed.

Lemma step_frame : forall qs m s1 c m' s2 st,
  step qs (m, s1) c = Some (m', s2) -> step qs (m, s1 ++ st) c = Some (m', s2 ++ st).
Proof.
  intros qs m s1 c m' s2 st H. unfold step in *.
  destruct m.
  - destruct (is_quote c); [injection H as <- <-; reflexivity|].
    destruct (is_open c); [injection H as <- <-; reflexivity|].
    destruct (open_of c) as [o|].
    + destruct s1 as [|t s1']; [discriminate|]. simpl.
      destruct (t =? o); [injection H as <- <-; reflexivity|discriminate].
    + injection H as <- <-; reflexivity.
  - destruct (c =? q); [injection H as <- <-; reflexivity|].
    destruct ((c =? 92) && bs_active qs q); injection H as <- <-; reflexivity.
  - injection H as <- <-; reflexivity.
Qed.

Lemma scan_frame : forall qs t m s1 m' s2 st,
  scan qs (m, s1) t = Some (m', s2) -> scan qs (m, s1 ++ st) t = Some (m', s2 ++ st).
Proof.
  induction t as [|c t IH]; intros m s1 m' s2 st H; cbn [scan] in *.
  - injection H as <- <-. reflexivity.
  - destruct (step qs (m, s1) c) as [[m1 s1']|] eqn:E; [|discriminate].
    rewrite (step_frame _ _ _ _ _ _ st E). apply IH; exact H.
Qed.

Lemma balanced_scan : forall qs t, balanced qs t = true <-> scan qs (MNorm, []) t = Some (MNorm, []).
Proof.
  intros qs t. unfold balanced. split; [|intros ->; reflexivity].
  destruct (scan qs (MNorm, []) t) as [[[| |] [|]]|]; (discriminate || reflexivity).
Qed.

Theorem balanced_closed : forall qs t, balanced qs t = true -> closed qs t.
Proof. intros qs t H st. apply balanced_scan in H. exact (scan_frame qs t MNorm [] MNorm [] st H). Qed.

Theorem closed_balanced : forall qs t, closed qs t -> balanced qs t = true.
Proof. intros qs t H. apply balanced_scan, H. Qed.

Theorem closed_nil : forall qs, closed qs [].
Proof. intros qs st. reflexivity. Qed.

Theorem closed_app : forall qs a b, closed qs a -> closed qs b -> closed qs (a ++ b).
Proof. intros qs a b Ha Hb st. rewrite scan_app, Ha. apply Hb. Qed.

Theorem closed_concat : forall qs l, Forall (closed qs) l -> closed qs (List.concat l).
Proof.
  induction 1; simpl; [apply closed_nil|apply closed_app; assumption].
Qed.

Theorem closed_join : forall qs sep l, closed qs sep -> Forall (closed qs) l -> closed qs (join sep l).
Proof.
  intros qs sep l Hs H. induction H as [|a l Ha Hl IH]; [apply closed_nil|].
  simpl. destruct l as [|b l']; [exact Ha|].
  apply closed_app; [exact Ha|]. apply closed_app; [exact Hs|exact IH].
Qed.

(* brackets: ( ) [ ] { } *)
Definition bracket_pair (o c : N) : Prop := (o = 40 /\ c = 41) \/ (o = 91 /\ c = 93) \/ (o = 123 /\ c = 125).

Theorem closed_bracket : forall qs o c a, bracket_pair o c -> closed qs a -> closed qs (o :: a ++ [c]).
Proof.
  intros qs o c a Hp Ha st.
  (* whichever pair it is: the opener is pushed, a leaves it on top, the closer pops it *)
  destruct Hp as [[-> ->]|[[-> ->]|[-> ->]]]; cbn; rewrite scan_app, Ha; reflexivity.
Qed.

Corollary closed_paren : forall qs a, closed qs a -> closed qs (40 :: a ++ [41]).
Proof. intros. apply closed_bracket; [left; split; reflexivity|assumption]. Qed.

Lemma step_str_close : forall qs q st, step qs (MStr q, st) q = Some (MNorm, st).
Proof. intros. unfold step. rewrite N.eqb_refl. reflexivity. Qed.

Lemma step_norm_quote : forall qs q st, is_quote q = true -> step qs (MNorm, st) q = Some (MStr q, st).
Proof. intros qs q st H. unfold step. rewrite H. reflexivity. Qed.

Lemma step_str_other : forall qs q c st, (c =? q) = false -> ((c =? 92) && bs_active qs q) = false ->
  step qs (MStr q, st) c = Some (MStr q, st).
Proof. intros qs q c st H1 H2. unfold step. rewrite H1, H2. reflexivity. Qed.

Lemma scan_stays : forall qs s t, (forall c, In c t -> step qs s c = Some s) -> scan qs s t = Some s.
Proof.
  intros qs s t H%Forall_forall. induction H as [|c t E _ IH]; [reflexivity|]. cbn [scan]. rewrite E. exact IH.
Qed.

Lemma inert_char_inv : forall c, inert_char c = true ->
  is_quote c = false /\ is_open c = false /\ open_of c = None /\ (c =? 92) = false.
Proof.
  intros c H. unfold inert_char in H. rewrite negb_true_iff, !orb_false_iff in H.
  destruct H as [[[Hq Ho] Hc] Hb]. destruct (open_of c); [discriminate Hc | auto].
Qed.

Lemma inert_step_norm : forall qs c st, inert_char c = true -> step qs (MNorm, st) c = Some (MNorm, st).
Proof.
  intros qs c st H. destruct (inert_char_inv c H) as (Hq & Ho & Hc & _).
  unfold step. rewrite Hq, Ho, Hc. reflexivity.
Qed.

Lemma inert_step_str : forall qs c st q, inert_char c = true -> is_quote q = true ->
  step qs (MStr q, st) c = Some (MStr q, st).
Proof.
  intros qs c st q H Hq'. destruct (inert_char_inv c H) as (Hq & _ & _ & Hb).
  apply step_str_other; [|rewrite Hb; reflexivity].
  apply N.eqb_neq. intros ->. congruence.
Qed.

Lemma inert_scan_norm : forall qs t st, inert t = true -> scan qs (MNorm, st) t = Some (MNorm, st).
Proof.
  intros qs t st H. apply scan_stays. intros c Hc.
  apply inert_step_norm. exact (proj1 (forallb_forall _ _) H c Hc).
Qed.

Lemma inert_scan_str : forall qs t st q, inert t = true -> is_quote q = true ->
  scan qs (MStr q, st) t = Some (MStr q, st).
Proof.
  intros qs t st q H Hq. apply scan_stays. intros c Hc.
  apply inert_step_str; [exact (proj1 (forallb_forall _ _) H c Hc) | exact Hq].
Qed.

Theorem closed_inert : forall qs t, inert t = true -> closed qs t.
Proof. intros qs t H st. apply inert_scan_norm; exact H. Qed.

(* the body of a literal written with quote q: no bare q (a doubled q is fine), no backslash when the
   engine reads backslash escapes *)
Fixpoint literal_body (qs : qstyle) (q : N) (l : text) : bool :=
  match l with
  | [] => true
  | c :: r =>
      if c =? q then match r with c2 :: r2 => (c2 =? q) && literal_body qs q r2 | [] => false end
      else negb ((c =? 92) && bs_active qs q) && literal_body qs q r
  end.

(* literal_body reads one or two characters at a time; the proof recurses as the function does *)
Lemma literal_body_scan : forall qs q, is_quote q = true -> forall l st,
  literal_body qs q l = true -> scan qs (MStr q, st) l = Some (MStr q, st).
Proof.
  intros qs q Hq. fix IH 1. intros [|c r] st H; [reflexivity|].
  cbn [literal_body] in H. cbn [scan]. destruct (c =? q) eqn:E.
  - destruct r as [|c2 r2]; [discriminate|]. apply andb_true_iff in H as [E2 H].
    apply N.eqb_eq in E, E2. subst c c2.
    rewrite step_str_close. cbn [scan]. rewrite (step_norm_quote qs q st Hq).
    exact (IH r2 st H).
  - apply andb_true_iff in H as [Hb H]. apply negb_true_iff in Hb.
    rewrite (step_str_other qs q c st E Hb). exact (IH r st H).
Qed.

(* A literal q body q is one closed unit, whatever brackets, keywords or placeholders its body holds. *)
Theorem string_literal_closed : forall qs q body, is_quote q = true -> literal_body qs q body = true ->
  closed qs (q :: body ++ [q]).
Proof.
  intros qs q body Hq Hb st. cbn [scan]. rewrite (step_norm_quote qs q st Hq).
  rewrite scan_app, (literal_body_scan qs q Hq body st Hb).
  cbn [scan]. rewrite step_str_close. reflexivity.
Qed.

(* the quote-doubling escape used by QL.StrLiteral for '...' produces a literal body, provided the
   engine does not read backslashes (sqlite, psql, presto, trino) or the string has none *)
Fixpoint double_quote (q : N) (l : text) : text :=
  match l with [] => [] | c :: r => if c =? q then q :: q :: double_quote q r else c :: double_quote q r end.

Lemma double_quote_body : forall qs q l, forallb (fun c => negb ((c =? 92) && bs_active qs q)) l = true ->
  literal_body qs q (double_quote q l) = true.
Proof.
  intros qs q l H. induction l as [|c r IH]; [reflexivity|].
  cbn [forallb] in H. apply andb_true_iff in H as [Hc Hr]. cbn [double_quote].
  destruct (c =? q) eqn:E; cbn [literal_body].
  - rewrite !N.eqb_refl. exact (IH Hr).
  - rewrite E, Hc. exact (IH Hr).
Qed.

Theorem quoted_string_closed : forall qs s, q_sq_bs qs = false -> closed qs (39 :: double_quote 39 s ++ [39]).
Proof.
  intros qs s H. apply string_literal_closed; [reflexivity|].
  apply double_quote_body, forallb_forall. intros c _. cbn [bs_active N.eqb Pos.eqb]. rewrite H. apply negb_true_iff, andb_false_r.
Qed.

Definition plain_body (qs : qstyle) (q : N) (body : text) : bool :=
  forallb (fun c => negb (c =? q) && negb ((c =? 92) && bs_active qs q)) body.

Lemma lex_body : forall qs q body out, plain_body qs q body = true ->
  fold_left (lex_step qs) body {| lx_mode := MStr q; lx_cur := None; lx_out := out |} =
  {| lx_mode := MStr q; lx_cur := None; lx_out := out |}.
Proof.
  intros qs q body out H. apply fold_left_stays. intros c Hc.
  apply (proj1 (forallb_forall _ _) H) in Hc. apply andb_true_iff in Hc as [H1 H2].
  apply negb_true_iff in H1, H2. unfold lex_step. cbn [lx_mode]. rewrite H1, H2. reflexivity.
Qed.

Theorem lex_string_literal : forall qs q body, is_quote q = true -> plain_body qs q body = true ->
  lex qs (q :: body ++ [q]) = Some [TStr q].
Proof.
  intros qs q body Hq Hb. unfold lex. cbn [fold_left].
  assert (E0 : lex_step qs lex_init q = {| lx_mode := MStr q; lx_cur := None; lx_out := [] |}).
  { unfold lex_step, lex_init. cbn [lx_mode lx_cur lx_out].
    assert (Hid : is_idch q = false).
    { unfold is_quote in Hq. repeat rewrite orb_true_iff in Hq.
      destruct Hq as [[Hq|Hq]|Hq]; apply N.eqb_eq in Hq; subst q; reflexivity. }
    rewrite Hid. rewrite Hq. reflexivity. }
  rewrite E0. rewrite fold_left_app. rewrite (lex_body qs q body [] Hb).
  cbn [fold_left]. unfold lex_step. cbn [lx_mode lx_out]. rewrite N.eqb_refl. reflexivity.
Qed.

Definition arg_ok (qs : qstyle) (allow : key -> bool) (k : key) (a : text) : Prop :=
  if allow k then inert a = true else closed qs a.

(* modes reached from MNorm only ever carry quote characters *)
Definition mode_wf (m : mode) : Prop :=
  match m with MNorm => True | MStr q => is_quote q = true | MEsc q => is_quote q = true end.

Lemma step_mode_wf : forall qs m st c m' st', mode_wf m -> step qs (m, st) c = Some (m', st') -> mode_wf m'.
Proof.
  intros qs m st c m' st' W H. unfold step in H. destruct m; simpl in W.
  - destruct (is_quote c) eqn:Q; [injection H as <- <-; exact Q|].
    destruct (is_open c); [injection H as <- <-; exact I|].
    destruct (open_of c).
    + destruct st as [|t st0]; [discriminate|]. destruct (t =? n); [injection H as <- <-; exact I | discriminate].
    + injection H as <- <-; exact I.
  - destruct (c =? q); [injection H as <- <-; exact I|].
    destruct ((c =? 92) && bs_active qs q); injection H as <- <-; exact W.
  - injection H as <- <-; exact W.
Qed.

(* The template theorem: if the template alone (holes skipped) drives the automaton from s to s', and
   every hole is filled with an argument that is closed (or inert, for holes allowed inside literals),
   then the instantiated text drives it from s to s' as well. *)
Theorem inst_scan : forall qs allow lookup t s s' out,
  mode_wf (fst s) ->
  tscan qs allow s t = Some s' ->
  (forall k a, In k (holes t) -> lookup k = Some a -> arg_ok qs allow k a) ->
  inst lookup t = Some out ->
  scan qs s out = Some s'.
Proof.
  induction t as [|p t IH]; intros [m st] s' out W Ht Hargs Hi; cbn [inst tscan holes fst] in *.
  - injection Hi as <-. exact Ht.
  - destruct p as [c|k].
    + destruct (inst lookup t) as [o|] eqn:Eo; [|discriminate]. injection Hi as <-.
      destruct (step qs (m, st) c) as [[m1 st1]|] eqn:E; [|discriminate].
      cbn [scan]. rewrite E. apply (IH (m1, st1) s' o); [|exact Ht|exact Hargs|reflexivity].
      exact (step_mode_wf qs m st c m1 st1 W E).
    + destruct (lookup k) as [a|] eqn:Ea; [|discriminate].
      destruct (inst lookup t) as [o|] eqn:Eo; [|discriminate]. injection Hi as <-.
      assert (Ha := Hargs k a (or_introl eq_refl) Ea). unfold arg_ok in Ha.
      (* the argument leaves the automaton where the hole stands, and the hole is one tscan passes *)
      assert (Hs : scan qs (m, st) a = Some (m, st) /\ tscan qs allow (m, st) t = Some s').
      { destruct m as [|q|q].
        - split; [|exact Ht]. destruct (allow k); [apply inert_scan_norm, Ha | apply Ha].
        - destruct (allow k); [|discriminate Ht]. split; [|exact Ht].
          apply inert_scan_str; [exact Ha | exact W].
        - discriminate Ht. }
      destruct Hs as [Hs Ht']. rewrite scan_app, Hs.
      apply (IH (m, st) s' o W Ht'); [|reflexivity]. intros k0 a0 Hin. apply Hargs. right. exact Hin.
Qed.

Corollary inst_closed : forall qs allow lookup t out,
  tclosed qs allow t = true ->
  (forall k a, In k (holes t) -> lookup k = Some a -> arg_ok qs allow k a) ->
  inst lookup t = Some out ->
  closed qs out.
Proof.
  intros qs allow lookup t out Hc Hargs Hi. apply balanced_closed.
  unfold tclosed in Hc. unfold balanced.
  destruct (tscan qs allow (MNorm, []) t) as [s|] eqn:E; [|discriminate Hc].
  rewrite (inst_scan qs allow lookup t (MNorm, []) s out I E Hargs Hi). exact Hc.
Qed.

Lemma inst_total : forall lookup t, (forall k, In k (holes t) -> lookup k <> None) -> exists out, inst lookup t = Some out.
Proof.
  induction t as [|p t IH]; intros H; simpl.
  - eexists; reflexivity.
  - destruct p as [c|k].
    + destruct IH as [o Ho]; [exact H|]. rewrite Ho. eexists; reflexivity.
    + simpl in H. destruct (lookup k) as [a|] eqn:Ea; [|exfalso; apply (H k); auto].
      destruct IH as [o Ho]; [intros; apply H; auto|]. rewrite Ho. eexists; reflexivity.
Qed.

(* All four sites are this: a template that is closed on its own, and for every hole an argument that
   may stand there. *)
Lemma inst_site : forall qs allow lookup t,
  tclosed qs allow t = true ->
  (forall k, In k (holes t) -> exists a, lookup k = Some a /\ arg_ok qs allow k a) ->
  exists out, inst lookup t = Some out /\ closed qs out.
Proof.
  intros qs allow lookup t Hc Hargs.
  destruct (inst_total lookup t) as [out Ho].
  { intros k Hin. destruct (Hargs k Hin) as (a & -> & _). discriminate. }
  exists out. split; [exact Ho|]. apply (inst_closed qs allow lookup t out Hc); [|exact Ho].
  intros k a Hin E. destruct (Hargs k Hin) as (a' & E' & Ha). congruence.
Qed.

Lemma by_index_site : forall qs allow t n args,
  tclosed qs allow t = true ->
  forallb (key_idx_below n) (holes t) = true -> (n <= List.length args)%nat ->
  (forall i a, nth_error args i = Some a -> arg_ok qs allow (KIdx i) a) ->
  exists out, inst (by_index args) t = Some out /\ closed qs out.
Proof.
  intros qs allow t n args Hc Hk Hn Ha. apply (inst_site qs allow _ t Hc).
  intros [i|s] Hin; apply (proj1 (forallb_forall _ _) Hk) in Hin; [|discriminate].
  apply Nat.ltb_lt in Hin. assert (Hi := proj2 (nth_error_Some args i) (Nat.lt_le_trans _ _ _ Hin Hn)).
  cbn [by_index]. destruct (nth_error args i) as [a|] eqn:E; [|contradiction]. exists a. auto.
Qed.

Lemma closed_args : forall qs args i a,
  Forall (closed qs) args -> nth_error args i = Some a -> arg_ok qs no_allow (KIdx i) a.
Proof. intros qs args i a H E. exact (proj1 (Forall_forall _ _) H a (nth_error_In _ _ E)). Qed.

Lemma parse_pct_holes : forall l n t, parse_pct n l = Some t ->
  holes t = map KIdx (seq n (List.length (holes t))).
Proof.
  (* recursion as in parse_pct: past one character, or past the two of a directive *)
  fix IH 1. intros [|c r] n t H; cbn [parse_pct] in H.
  - injection H as <-. reflexivity.
  - destruct (c =? 37).
    + destruct r as [|c2 r2]; [discriminate|].
      destruct (c2 =? 115); [|destruct (c2 =? 37); [|discriminate]].
      * destruct (parse_pct (S n) r2) as [t'|] eqn:E; [|discriminate]. injection H as <-.
        cbn [holes List.length seq map]. f_equal. exact (IH r2 _ _ E).
      * destruct (parse_pct n r2) as [t'|] eqn:E; [|discriminate]. injection H as <-.
        cbn [holes]. exact (IH r2 _ _ E).
    + destruct (parse_pct n r) as [t'|] eqn:E; [|discriminate]. injection H as <-.
      cbn [holes]. exact (IH r _ _ E).
Qed.

Lemma parse_pct_below : forall f t, parse_pct 0 f = Some t ->
  forallb (key_idx_below (List.length (holes t))) (holes t) = true.
Proof.
  intros f t H. rewrite (parse_pct_holes f 0%nat t H) at 2.
  apply forallb_forall. intros k Hin. apply in_map_iff in Hin as (i & <- & Hi).
  apply in_seq in Hi. apply Nat.ltb_lt, Hi.
Qed.

Theorem percent_inst_ok : forall qs allow f args,
  percent_template_ok qs allow f (List.length args) = true ->
  (forall i a, nth_error args i = Some a -> arg_ok qs allow (KIdx i) a) ->
  exists out, inst_percent f args = Some out /\ closed qs out.
Proof.
  intros qs allow f args H Ha. unfold percent_template_ok in H. unfold inst_percent.
  destruct (parse_pct 0 f) as [t|] eqn:Ep; [|discriminate].
  apply andb_true_iff in H. destruct H as [Hn Hc]. rewrite Hn. apply Nat.eqb_eq in Hn.
  apply (by_index_site qs allow t _ args Hc (parse_pct_below f t Ep)); [|exact Ha]. rewrite Hn. apply le_n.
Qed.

(* f.format( *args) may be given more arguments than it mentions *)
Lemma format_site : forall qs f n args,
  format_template_ok qs f n = true -> (n <= List.length args)%nat -> Forall (closed qs) args ->
  exists out, inst_format f args = Some out /\ closed qs out.
Proof.
  intros qs f n args H Hn Ha. unfold format_template_ok in H. unfold inst_format.
  destruct (parse_fmt f) as [t|]; [|discriminate].
  apply andb_true_iff in H. destruct H as [Hk Hc].
  apply (by_index_site qs no_allow t n args Hc Hk Hn). intros i a. apply closed_args, Ha.
Qed.

Theorem format_inst_ok : forall qs f args,
  format_template_ok qs f (List.length args) = true -> Forall (closed qs) args ->
  exists out, inst_format f args = Some out /\ closed qs out.
Proof. intros qs f args H. exact (format_site qs f _ args H (le_n _)). Qed.

(* QL.Function is the `%` site with the one argument ', '.join(args) when the template has a %s, the
   `.format` site otherwise; the check and the instantiation split the same way, by conversion. *)
Theorem function_inst_ok : forall qs f lo args,
  function_template_ok qs f lo = true -> (lo <= List.length args)%nat -> Forall (closed qs) args ->
  exists out, inst_function f args = Some out /\ closed qs out.
Proof.
  intros qs f lo args H Hlo Ha. unfold function_template_ok in H. unfold inst_function.
  destruct (contains pct_s f).
  - apply (percent_inst_ok qs no_allow f [join comma_sp args] H).
    intros i a. apply closed_args. constructor; [|constructor].
    apply closed_join; [apply closed_inert; reflexivity | exact Ha].
  - exact (format_site qs f lo args H Hlo Ha).
Qed.

Lemma paren_site : forall qs o, (exists b, o = Some b /\ closed qs b) ->
  exists out, option_map (fun b => 40 :: b ++ [41]) o = Some out /\ closed qs out.
Proof. intros qs o (b & -> & Hb). eexists. split; [reflexivity|]. apply closed_paren, Hb. Qed.

Theorem infix_inst_ok : forall qs op l r,
  infix_template_ok qs op = true -> closed qs l -> closed qs r ->
  exists out, inst_infix op l r = Some out /\ closed qs out.
Proof.
  intros qs op l r H Hl Hr. unfold infix_template_ok in H. unfold inst_infix. apply paren_site.
  destruct (contains pct_s op).
  - apply (percent_inst_ok qs no_allow op [l; r] H).
    intros i a. apply closed_args. repeat constructor; assumption.
  - destruct (parse_fmt op) as [t|] eqn:Ep; [|discriminate].
    apply andb_true_iff in H. destruct H as [Hk Hc].
    apply (inst_site qs no_allow _ t Hc).
    intros [i|n] Hin; apply (proj1 (forallb_forall _ _) Hk) in Hin; [discriminate|].
    cbn [by_left_right key_left_right] in *.
    destruct (text_eqb n name_left); [exists l; auto|]. cbn [orb] in Hin. rewrite Hin. exists r; auto.
Qed.
