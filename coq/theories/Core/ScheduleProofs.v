(* Range restriction is a property of the SET of conjuncts, not of their textual order:
   the greedy scheduler of Core/Eval.v succeeds iff SOME order of the conjuncts can be evaluated
   (every conjunct ready when its turn comes), hence for every permutation of the conjuncts alike. *)
From Coq Require Import List Bool Arith Permutation Lia.
Import ListNotations.
From LV Require Import Core.Syntax Core.Eval Core.EvalProofs.

(* forallb, && and || are monotone: readiness is built from them, so it only grows with the bound set *)
Lemma forallb_mono {A} (f g : A -> bool) l :
  (forall x, f x = true -> g x = true) -> forallb f l = true -> forallb g l = true.
Proof.
  intros H F. apply forallb_forall. intros x Hx. apply H, (proj1 (forallb_forall f l) F x Hx).
Qed.

Lemma andb_mono a a' b b' :
  (a = true -> a' = true) -> (b = true -> b' = true) -> a && b = true -> a' && b' = true.
Proof. intros Ha Hb H. apply andb_true_iff in H as [H1 H2]. rewrite (Ha H1), (Hb H2). reflexivity. Qed.

Lemma orb_mono a a' b b' :
  (a = true -> a' = true) -> (b = true -> b' = true) -> a || b = true -> a' || b' = true.
Proof.
  intros Ha Hb H. apply orb_true_iff in H as [H|H]; [rewrite (Ha H); reflexivity | rewrite (Hb H); apply orb_true_r].
Qed.

Section S.
Variable scope : list var.

Definition sub (B B' : list var) : Prop := forall x, memv x B = true -> memv x B' = true.

Lemma sub_refl B : sub B B.
Proof. intros x H. exact H. Qed.

Lemma sub_app_r B a : sub B (a ++ B).
Proof. intros x H. rewrite memv_app, H. apply orb_true_r. Qed.

Lemma ready_e_mono B B' e : sub B B' -> ready_e scope B e = true -> ready_e scope B' e = true.
Proof.
  intros S. unfold ready_e.
  apply andb_mono; apply forallb_mono; intros x; [apply S | apply orb_mono; [apply S | trivial]].
Qed.

Lemma bare_unbound_ready B e :
  match bare_unbound B e with
  | Some _ => is_bare e = true /\ ready_e scope B e = false
  | None => is_bare e || ready_e scope B e = ready_e scope B e
  end.
Proof.
  destruct e; try reflexivity. unfold ready_e. cbn. destruct (memv x B); [reflexivity | split; reflexivity].
Qed.

(* in this form every occurrence of the bound set is positive, so readiness is monotone in it (ready_mono) *)
Lemma ready_unify B a b : ready scope B (CUnify a b) =
  (is_bare a || ready_e scope B a) && (is_bare b || ready_e scope B b) && (ready_e scope B a || ready_e scope B b).
Proof.
  cbn [ready]. pose proof (bare_unbound_ready B a) as Ha. pose proof (bare_unbound_ready B b) as Hb.
  destruct (bare_unbound B a), (bare_unbound B b).
  - destruct Ha as [-> ->], Hb as [-> ->]. reflexivity.
  - destruct Ha as [-> ->]. rewrite Hb. symmetry. apply andb_diag.
  - destruct Hb as [-> ->]. rewrite Ha, andb_true_r, orb_false_r. symmetry. apply andb_diag.
  - rewrite Ha, Hb. destruct (ready_e scope B a), (ready_e scope B b); reflexivity.
Qed.

Lemma ready_mono B B' c : sub B B' -> ready scope B c = true -> ready scope B' c = true.
Proof.
  intros S. pose proof (fun e => ready_e_mono B B' e S) as M.
  destruct c as [p args|e|a b|x l|body]; rewrite ?ready_unify; cbn [ready].
  - apply forallb_mono. intros fe. apply orb_mono; [trivial | apply M].
  - apply M.
  - repeat apply andb_mono; apply orb_mono; auto.
  - apply andb_mono; [apply M | apply orb_mono; [trivial | apply M]].
  - apply forallb_mono. intros x. apply orb_mono; [apply S | trivial].
Qed.

(* the variables a conjunct can bind: its bare-variable arguments *)
Definition bare (e : expr) : list var := match e with EVar x => [x] | _ => [] end.
Definition bare_vars (c : conj) : list var :=
  match c with
  | CAtom _ args => flat_map (fun fe => bare (snd fe)) args
  | CUnify a b => bare a ++ bare b
  | CIn x _ => bare x
  | _ => []
  end.

Lemma bare_unbound_bare B e :
  match bare_unbound B e with Some x => bare e = [x] | None => sub (bare e) B end.
Proof.
  destruct e; try (intros y H; discriminate). cbn [bare_unbound bare].
  destruct (memv x B) eqn:E; [|reflexivity].
  intros y H. unfold memv in H. cbn in H. rewrite orb_false_r in H. apply Nat.eqb_eq in H. subst y. exact E.
Qed.

Lemma sub_absorb X B x : sub X B -> memv x X || memv x B = memv x B.
Proof. intros H. destruct (memv x X) eqn:E; [rewrite (H x E)|]; reflexivity. Qed.

(* once c is ready, what is bound after it does not depend on how much was bound before: a bare
   variable of c that c does not bind was bound already *)
Lemma after_ready B c x : ready scope B c = true ->
  memv x (binds B c ++ B) = memv x (bare_vars c) || memv x B.
Proof.
  intros R. rewrite memv_app. destruct c as [p args|e|a b|y l|body]; try reflexivity.
  cbn [ready binds bare_vars] in *. rewrite memv_app.
  pose proof (bare_unbound_bare B a) as Ha. pose proof (bare_unbound_bare B b) as Hb.
  destruct (bare_unbound B a), (bare_unbound B b); try discriminate.
  - rewrite Ha, <- orb_assoc, (sub_absorb _ _ _ Hb). reflexivity.
  - rewrite Hb, (orb_comm (memv x (bare a))), <- orb_assoc, (sub_absorb _ _ _ Ha). reflexivity.
  - rewrite <- orb_assoc, (sub_absorb _ _ _ Hb), (sub_absorb _ _ _ Ha). reflexivity.
Qed.

Lemma after_mono B B' c : sub B B' -> ready scope B c = true -> sub (binds B c ++ B) (binds B' c ++ B').
Proof.
  intros S R x. rewrite (after_ready B c x R), (after_ready B' c x (ready_mono _ _ _ S R)).
  apply orb_mono; [trivial | apply S].
Qed.

(* Pick c cs rest is the standard library's Add c rest cs *)
Inductive Pick (c : conj) : list conj -> list conj -> Prop :=
| pick_here l : Pick c (c :: l) l
| pick_later d l l' : Pick c l l' -> Pick c (d :: l) (d :: l').

(* some order in which every conjunct is ready when its turn comes *)
Inductive sched : list var -> list conj -> Prop :=
| sched_nil B : sched B []
| sched_cons B cs c rest :
    Pick c cs rest -> ready scope B c = true -> sched (binds B c ++ B) rest -> sched B cs.

Lemma sched_mono B cs : sched B cs -> forall B', sub B B' -> sched B' cs.
Proof.
  induction 1 as [B|B cs c rest P R _ IH]; intros B' S; [constructor|].
  econstructor; [exact P | eapply ready_mono; eassumption | apply IH, after_mono; assumption].
Qed.

Lemma Pick_Add c l l' : Pick c l l' <-> Add c l' l.
Proof. split; induction 1; constructor; assumption. Qed.

Lemma sched_perm B cs : sched B cs -> forall cs', Permutation cs cs' -> sched B cs'.
Proof.
  induction 1 as [B|B cs c rest P R _ IH]; intros cs' Pm.
  - apply Permutation_nil in Pm. subst. constructor.
  - apply Pick_Add in P.
    destruct (Add_inv c cs') as [m' P']; [eapply Permutation_in; [exact Pm|]; apply (Add_in P); left; reflexivity|].
    econstructor; [apply Pick_Add, P' | exact R | apply IH, (Permutation_Add_inv Pm P P')].
Qed.

(* a conjunct contributes nothing but its bare variables: where these are bound it can be left out *)
Lemma sched_drop B cs : sched B cs ->
  forall c rest B', cs = c :: rest -> sub B B' -> sub (bare_vars c) B' -> sched B' rest.
Proof.
  induction 1 as [B|B cs c0 rest0 P0 R0 H0 IH]; intros c rest B' E S Sc; [discriminate|]. subst cs.
  inversion P0 as [|? ? l' P]; subst.
  - apply (sched_mono _ _ H0). intros x. rewrite (after_ready _ _ x R0).
    intros H. apply orb_true_iff in H as [H|H]; [apply Sc, H | apply S, H].
  - econstructor; [exact P | exact (ready_mono _ _ _ S R0) |].
    apply (IH c l' _ eq_refl (after_mono _ _ _ S R0)).
    intros x H. rewrite memv_app, (Sc x H). apply orb_true_r.
Qed.

Lemma sched_exchange B cs c rest :
  sched B cs -> Pick c cs rest -> ready scope B c = true -> sched (binds B c ++ B) rest.
Proof.
  intros H P R. apply Pick_Add, Permutation_Add, Permutation_sym in P.
  apply (sched_drop _ _ (sched_perm _ _ H _ P) c rest _ eq_refl (sub_app_r _ _)).
  intros x Hx. rewrite (after_ready _ _ x R), Hx. reflexivity.
Qed.

Lemma pick_spec B seen cs :
  match pick scope B seen cs with
  | Some (c, rest) => ready scope B c = true /\ Pick c (rev seen ++ cs) rest
  | None => forall c, In c cs -> ready scope B c = false
  end.
Proof.
  revert seen. induction cs as [|d cs IH]; cbn [pick]; intros seen; [intros c []|].
  destruct (ready scope B d) eqn:E; [split; [exact E | apply Pick_Add, Add_app]|].
  specialize (IH (d :: seen)). destruct (pick scope B (d :: seen) cs) as [[c rest]|].
  - cbn [rev] in IH. rewrite <- app_assoc in IH. exact IH.
  - intros c [<-|Hin]; [exact E | apply IH, Hin].
Qed.

Theorem schedule_complete : forall fuel B cs, length cs <= fuel -> sched B cs ->
  exists l, schedule scope fuel B cs = Some l.
Proof.
  induction fuel as [|fuel IH]; intros B cs L H.
  - destruct cs; [exists []; reflexivity | inversion L].
  - destruct cs as [|d cs']; [exists []; reflexivity|].
    cbn [schedule]. pose proof (pick_spec B [] (d :: cs')) as Sp.
    destruct (pick scope B [] (d :: cs')) as [[c rest]|].
    + destruct Sp as [R P]. pose proof (Add_length (proj1 (Pick_Add _ _ _) P)) as E.
      destruct (IH _ rest ltac:(simpl in E, L; lia) (sched_exchange _ _ _ _ H P R)) as [l El].
      rewrite El. eexists. reflexivity.
    + exfalso. inversion H as [|? ? c rest P R _]; subst.
      rewrite (Sp c) in R; [discriminate|].
      apply (Add_in (proj1 (Pick_Add _ _ _) P)). left. reflexivity.
Qed.

Lemma schedule_ind (Q : list var -> list conj -> list conj -> Prop) :
  (forall B, Q B [] []) ->
  (forall B cs c rest l, Pick c cs rest -> ready scope B c = true -> Q (binds B c ++ B) rest l -> Q B cs (c :: l)) ->
  forall fuel B cs l, schedule scope fuel B cs = Some l -> Q B cs l.
Proof.
  intros Hnil Hcons. induction fuel as [|fuel IH]; intros B cs l H.
  - destruct cs; [|discriminate]. injection H as <-. apply Hnil.
  - destruct cs as [|d cs']; [injection H as <-; apply Hnil|].
    cbn [schedule] in H. pose proof (pick_spec B [] (d :: cs')) as Sp.
    destruct (pick scope B [] (d :: cs')) as [[c rest]|]; [|discriminate].
    destruct (schedule scope fuel (binds B c ++ B) rest) as [l'|] eqn:El; [|discriminate].
    injection H as <-. destruct Sp as [R P]. apply (Hcons _ _ _ rest); auto.
Qed.

(* the order it returns keeps every conjunct exactly once: nothing is dropped, nothing evaluated twice *)
Theorem schedule_is_permutation : forall fuel B cs l, schedule scope fuel B cs = Some l -> Permutation cs l.
Proof.
  apply (schedule_ind (fun _ cs l => Permutation cs l)); [constructor|].
  intros _ cs c rest l P _ IH. apply Pick_Add, Permutation_Add in P.
  eapply perm_trans; [apply Permutation_sym, P | apply perm_skip, IH].
Qed.

(* every conjunct of l is ready when its turn comes, in the order of l: what eval_conj_list relies on
   when it runs the scheduled list from left to right *)
Fixpoint runs (B : list var) (l : list conj) : Prop :=
  match l with
  | [] => True
  | c :: l' => ready scope B c = true /\ runs (binds B c ++ B) l'
  end.

Theorem schedule_runs : forall fuel B cs l, schedule scope fuel B cs = Some l -> runs B l.
Proof.
  apply (schedule_ind (fun B _ l => runs B l)); [exact (fun _ => I)|].
  intros B _ c _ l _ R H. exact (Logic.conj R H).
Qed.

Lemma runs_sched l : forall B, runs B l -> sched B l.
Proof.
  induction l as [|c l IH]; intros B H; [constructor|].
  destruct H as [R H]. exact (sched_cons B (c :: l) c l (pick_here c l) R (IH _ H)).
Qed.

Theorem schedule_sound : forall fuel B cs l, schedule scope fuel B cs = Some l -> sched B cs.
Proof.
  intros fuel B cs l H. apply (sched_perm B l).
  - exact (runs_sched l B (schedule_runs fuel B cs l H)).
  - apply Permutation_sym, (schedule_is_permutation fuel B cs l H).
Qed.

Theorem range_restriction_order_independent : forall B cs cs', Permutation cs cs' ->
  (exists l, schedule scope (S (length cs)) B cs = Some l) <->
  (exists l, schedule scope (S (length cs')) B cs' = Some l).
Proof.
  intros B cs cs' Pm. split; intros [l H].
  - apply schedule_complete; [lia|]. eapply sched_perm; [eapply schedule_sound, H | exact Pm].
  - apply schedule_complete; [lia|]. eapply sched_perm; [eapply schedule_sound, H | apply Permutation_sym, Pm].
Qed.

End S.

Theorem unsafe_is_rejected n P D scope en cs :
  schedule scope (S (length cs)) (map fst en) cs = None ->
  eval_conj_list (S n) P D scope en cs = Fail E_UNSAFE.
Proof. intros H. cbn [eval_conj_list]. rewrite H. reflexivity. Qed.
