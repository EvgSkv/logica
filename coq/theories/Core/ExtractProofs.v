(* Correctness of the compile path  rule -> ExtractRuleStructure -> ElliminateInternalVariables ->
   FROM/WHERE/SELECT  on the conjunctive fragment (models Core/Extract.v, Core/Elim.v):
   a row choice of the FROM product that passes the final WHERE and yields the SELECT row is a derivation of
   the rule with that head row, and a derivation whose remaining equalities compare non-null values is emitted.
   Since SQL emits one row per passing row choice, this is the bag equality "conjunction multiplies
   multiplicities" for a single rule. *)
From Coq Require Import List Bool Arith.
Import ListNotations.
From LV Require Import Core.Syntax Core.Eval Core.Elim Core.ElimProofs Core.Extract.

Section Correct.
Variable app : nat -> list val -> val.
Notation peval := (Elim.peval app).

Definition cells_ok (tau : var -> val) (cm : colmap) (rho : choice) : Prop :=
  forall x t f, In (x, (t, f)) cm ->
  exists rw, nth_error rho t = Some rw /\ lookup_field f rw = Some (tau x).

Definition wf_choice (cm : colmap) (rho : choice) : Prop :=
  forall x t f, In (x, (t, f)) cm -> exists rw v, nth_error rho t = Some rw /\ lookup_field f rw = Some v.

(* index based reading of "the j-th atom of the body matches the j-th chosen row" (Extract.derivation says it
   with Forall2, which also fixes the number of rows) *)
Definition atoms_valid (tau : var -> val) (cs : list cconj) (ti : nat) (rho : choice) : Prop :=
  forall j p args rw, nth_error (atoms_of cs) j = Some (p, args) -> nth_error rho (ti + j) = Some rw ->
  forall f e, In (f, e) args -> lookup_field f rw = Some (peval tau e).

Definition derives (tau : var -> val) (rho : choice) (r : crule) : Prop :=
  atoms_valid tau (k_body r) 0 rho /\ Forall (conj_valid app tau) (k_body r).

Definition compiled (is_x : var -> bool) (r : crule) (final : rs) : Prop :=
  eliminate is_x (map fst (x_cols (extract r))) (x_rs (extract r)) = Some (inr final).

Lemma cells_ok_app tau cm1 cm2 rho : cells_ok tau (cm1 ++ cm2) rho <-> cells_ok tau cm1 rho /\ cells_ok tau cm2 rho.
Proof.
  unfold cells_ok. split.
  - intros H. split; intros x t f Hin; apply H; apply in_or_app; auto.
  - intros [H1 H2] x t f Hin. apply in_app_or in Hin as [Hin|Hin]; auto.
Qed.

Lemma extract_args_correct tau rho ti : forall args n,
  let '(us, cm, n') := extract_args ti args n in
  cells_ok tau cm rho ->
  (Forall (unif_holds app tau) us <->
   (forall rw, nth_error rho ti = Some rw -> forall f e, In (f, e) args -> lookup_field f rw = Some (peval tau e))).
Proof.
  induction args as [|[f0 e0] args IH]; intros n; cbn [extract_args].
  - intros _. split; [intros _ rw _ f e [] | constructor].
  - specialize (IH (S n)). destruct (extract_args ti args (S n)) as [[us1 cm1] n1]. intros C.
    destruct (C (xvar n) ti f0 (or_introl eq_refl)) as [rw0 [Hr0 Hc0]].
    rewrite Forall_cons_iff, IH by (intros x t f Hin; apply C; right; exact Hin).
    unfold unif_holds. cbn [fst snd Elim.peval]. split.
    + intros [H0 H] rw Hrw f e [[= <- <-]|Hin]; [|exact (H rw Hrw f e Hin)].
      rewrite Hr0 in Hrw. injection Hrw as <-. rewrite Hc0, H0. reflexivity.
    + intros H. split; [|intros rw Hrw f e Hin; apply (H rw Hrw); right; exact Hin].
      specialize (H rw0 Hr0 f0 e0 (or_introl eq_refl)). rewrite Hc0 in H. injection H as H. exact H.
Qed.

Lemma atoms_valid_atom tau p args cs ti rho :
  atoms_valid tau (KAtom p args :: cs) ti rho <->
  (forall rw, nth_error rho ti = Some rw -> forall f e, In (f, e) args -> lookup_field f rw = Some (peval tau e)) /\
  atoms_valid tau cs (S ti) rho.
Proof.
  unfold atoms_valid. cbn [atoms_of]. split.
  - intros H. split.
    + intros rw Hrw. apply (H 0 p args rw eq_refl). rewrite Nat.add_0_r. exact Hrw.
    + intros j q a rw Hj Hrw. apply (H (S j) q a rw Hj). rewrite Nat.add_succ_r. exact Hrw.
  - intros [H0 HS] [|j] q a rw Hj Hrw; cbn [nth_error] in Hj.
    + injection Hj as <- <-. apply H0. rewrite Nat.add_0_r in Hrw. exact Hrw.
    + apply (HS j q a rw Hj). rewrite Nat.add_succ_r in Hrw. exact Hrw.
Qed.

Lemma and_iff_add_l (P Q A B C D : Prop) : (P <-> Q) -> (A /\ B <-> C /\ D) -> ((P /\ A) /\ B <-> C /\ Q /\ D).
Proof.
  intros PQ [F G]. split.
  - intros [[p a] b]. destruct (F (Logic.conj a b)) as [c d]. split; [exact c | split; [apply PQ, p | exact d]].
  - intros [c [q d]]. destruct (G (Logic.conj c d)) as [a b]. split; [split; [apply PQ, q | exact a] | exact b].
Qed.

Lemma and_iff_add_r (P Q A B C D : Prop) : (P <-> Q) -> (A /\ B <-> C /\ D) -> (A /\ P /\ B <-> C /\ Q /\ D).
Proof.
  intros PQ [F G]. split.
  - intros [a [p b]]. destruct (F (Logic.conj a b)) as [c d]. split; [exact c | split; [apply PQ, p | exact d]].
  - intros [c [q d]]. destruct (G (Logic.conj c d)) as [a b]. split; [exact a | split; [apply PQ, q | exact b]].
Qed.

(* each conjunct adds one conjunct to either side; Forall_app / Forall_cons_iff and atoms_valid_atom expose it *)
Lemma extract_body_correct tau rho : forall cs ti n,
  let '(us, co, cm, ts, n') := extract_body cs ti n in
  cells_ok tau cm rho ->
  (Forall (unif_holds app tau) us /\ Forall (con_holds app tau) co
   <-> atoms_valid tau cs ti rho /\ Forall (conj_valid app tau) cs).
Proof.
  induction cs as [|c cs IH]; intros ti n; cbn [extract_body].
  - intros _. split; intros _; split; try constructor. intros [|j] p args rw Hj; discriminate.
  - destruct c as [p args|l0 r0|c0].
    + pose proof (extract_args_correct tau rho ti args n) as A. destruct (extract_args ti args n) as [[us1 cm1] n1].
      specialize (IH (S ti) n1). destruct (extract_body cs (S ti) n1) as [[[[us2 co2] cm2] ts2] n2]. intros C.
      apply cells_ok_app in C as [C1 C2]. specialize (IH C2).
      rewrite Forall_app, atoms_valid_atom, Forall_cons_iff, <- (A C1). split.
      * intros [[U1 U2] Co]. destruct (proj1 IH (Logic.conj U2 Co)) as [Av Fv]. repeat split; assumption.
      * intros [[U1 Av] [_ Fv]]. destruct (proj2 IH (Logic.conj Av Fv)) as [U2 Co]. repeat split; assumption.
    + specialize (IH ti n). destruct (extract_body cs ti n) as [[[[us2 co2] cm2] ts2] n2].
      change (atoms_valid tau (KUnify l0 r0 :: cs) ti rho) with (atoms_valid tau cs ti rho).
      destruct (is_pvar l0 || is_pvar r0) eqn:Ev; [|destruct (pexpr_eqb l0 r0) eqn:Eq].
      * intros C. rewrite !Forall_cons_iff. cbn [conj_valid]. rewrite Ev.
        apply and_iff_add_l; [reflexivity | exact (IH C)].
      * intros C. rewrite Forall_cons_iff. cbn [conj_valid]. rewrite Ev, (IH C).
        split; [intros [Av Fv] | intros [Av [_ Fv]]]; auto.
      * intros C. rewrite !Forall_cons_iff. cbn [conj_valid]. rewrite Ev.
        apply and_iff_add_r; [|exact (IH C)]. unfold con_holds. rewrite truthy_OEq, Eq.
        split; [auto | intros [H|H]; [exact H | discriminate H]].
    + specialize (IH ti n). destruct (extract_body cs ti n) as [[[[us2 co2] cm2] ts2] n2]. intros C.
      change (atoms_valid tau (KCond c0 :: cs) ti rho) with (atoms_valid tau cs ti rho).
      rewrite !Forall_cons_iff. apply and_iff_add_r; [reflexivity | exact (IH C)].
Qed.

(* ExtractRuleStructure is right: over a row choice, the solutions of the extracted structure are the
   derivations of the rule that also satisfy the head's extract unifications *)
Lemma extract_correct tau rho r : cells_ok tau (x_cols (extract r)) rho ->
  (solves app tau (x_rs (extract r)) <->
   Forall (unif_holds app tau) (fst (extract_head (k_head r) 0)) /\ derives tau rho r) /\
  output app tau (x_rs (extract r)) = head_row app tau r.
Proof.
  unfold extract, derives. destruct (extract_head (k_head r) 0) as [uh n1].
  generalize (extract_body_correct tau rho (k_body r) 0 n1).
  destruct (extract_body (k_body r) 0 n1) as [[[[ub co] cm] ts] n2]. cbn [x_rs x_cols fst]. intros B C.
  split; [|reflexivity].
  rewrite solves_Forall. cbn [unifs cons]. rewrite Forall_app, <- (B C), and_assoc. reflexivity.
Qed.

Lemma extract_args_keys ti : forall args n,
  let '(us, cm, n') := extract_args ti args n in map fst cm = map xvar (seq n (length cm)) /\ n' = n + length cm.
Proof.
  induction args as [|[f e] args IH]; intros n; cbn [extract_args].
  - split; [reflexivity | apply plus_n_O].
  - specialize (IH (S n)). destruct (extract_args ti args (S n)) as [[us1 cm1] n1].
    destruct IH as [K ->]. cbn [map fst length seq]. rewrite K, Nat.add_succ_r. split; reflexivity.
Qed.

Lemma extract_body_keys : forall cs ti n,
  let '(us, co, cm, ts, n') := extract_body cs ti n in map fst cm = map xvar (seq n (length cm)) /\ n' = n + length cm.
Proof.
  induction cs as [|c cs IH]; intros ti n; cbn [extract_body].
  - split; [reflexivity | apply plus_n_O].
  - destruct c as [p args|l0 r0|c0].
    + pose proof (extract_args_keys ti args n) as K1. destruct (extract_args ti args n) as [[us1 cm1] n1].
      specialize (IH (S ti) n1). destruct (extract_body cs (S ti) n1) as [[[[us2 co2] cm2] ts2] n2].
      destruct K1 as [K1 ->]. destruct IH as [K2 ->].
      rewrite map_app, app_length, seq_app, map_app, K1, K2, Nat.add_assoc. split; reflexivity.
    + specialize (IH ti n). destruct (extract_body cs ti n) as [[[[us2 co2] cm2] ts2] n2].
      destruct (is_pvar l0 || is_pvar r0); [|destruct (pexpr_eqb l0 r0)]; exact IH.
    + specialize (IH ti n). destruct (extract_body cs ti n) as [[[[us2 co2] cm2] ts2] n2]. exact IH.
Qed.

Lemma extract_cols_NoDup r : NoDup (map fst (x_cols (extract r))).
Proof.
  unfold extract. destruct (extract_head (k_head r) 0) as [uh n1].
  generalize (extract_body_keys (k_body r) 0 n1).
  destruct (extract_body (k_body r) 0 n1) as [[[[ub co] cm] ts] n2]. cbn [x_cols]. intros [-> _].
  apply FinFun.Injective_map_NoDup; [intros a b; apply Nat.add_cancel_l | apply seq_NoDup].
Qed.

Lemma lookup_col_In x tf cm : NoDup (map fst cm) -> In (x, tf) cm -> lookup_col x cm = Some tf.
Proof.
  induction cm as [|[y uf] cm IH]; simpl; intros ND Hin; [contradiction|].
  inversion ND as [|? ? Hy ND']. subst. destruct Hin as [Hin|Hin].
  - inversion Hin. subst. rewrite Nat.eqb_refl. reflexivity.
  - destruct (Nat.eqb x y) eqn:E; [|apply IH; assumption].
    apply Nat.eqb_eq in E. subst. exfalso. apply Hy. change y with (fst (y, tf)). apply in_map, Hin.
Qed.

Lemma cells_ok_env tau cm rho : NoDup (map fst cm) ->
  (cells_ok tau cm rho <-> wf_choice cm rho /\ forall x, In x (map fst cm) -> tau x = env_of cm rho x).
Proof.
  intros ND.
  assert (Env : forall x t f rw v, In (x, (t, f)) cm -> nth_error rho t = Some rw -> lookup_field f rw = Some v ->
                env_of cm rho x = v).
  { intros x t f rw v Hin Hr Hv. unfold env_of. rewrite (lookup_col_In x (t, f) cm ND Hin), Hr, Hv. reflexivity. }
  split.
  - intros C. split.
    + intros x t f Hin. destruct (C x t f Hin) as [rw [Hr Hv]]. exists rw, (tau x). auto.
    + intros x Hx. apply in_map_iff in Hx as [[y [t f]] [<- Hin]].
      destruct (C _ _ _ Hin) as [rw [Hr Hv]]. symmetry. exact (Env _ _ _ _ _ Hin Hr Hv).
  - intros [W A] x t f Hin. destruct (W x t f Hin) as [rw [v [Hr Hv]]]. exists rw. split; [exact Hr|].
    rewrite (A x), (Env _ _ _ _ _ Hin Hr Hv); [exact Hv|]. apply (in_map fst) in Hin. exact Hin.
Qed.

Lemma eliminate_no_unifs is_x E s s' : eliminate is_x E s = Some (inr s') -> unifs s' = [].
Proof.
  unfold eliminate. destruct (rounds _ _ _ _ s) as [s1|]; [|discriminate]. destruct (internal_vars E s1); [|discriminate].
  intros H. inversion H. reflexivity.
Qed.

Lemma sql_row_spec cm final rho out : unifs final = [] ->
  (sql_row app cm final rho = Some out <->
   solves app (env_of cm rho) final /\ output app (env_of cm rho) final = out).
Proof.
  intros Hu. unfold sql_row, solves. rewrite Hu.
  destruct (forallb _ (cons final)) eqn:Ef.
  - rewrite forallb_forall in Ef. split.
    + intros [= <-]. split; [split; [intros l r [] | exact Ef] | reflexivity].
    + intros [_ <-]. reflexivity.
  - split; [discriminate|]. intros [[_ H] _]. apply forallb_forall in H. congruence.
Qed.

Lemma sql_row_sound is_x s cm final rho out :
  NoDup (map fst cm) -> wf_choice cm rho ->
  eliminate is_x (map fst cm) s = Some (inr final) ->
  sql_row app cm final rho = Some out ->
  exists tau, cells_ok tau cm rho /\ solves app tau s /\ output app tau s = out.
Proof.
  intros ND Hwf He Hs. apply sql_row_spec in Hs as [Hsol <-]; [|exact (eliminate_no_unifs _ _ _ _ He)].
  destruct (row_choice_correct app is_x _ _ _ He) as [s1 [_ HR]].
  destruct (proj1 (HR _) Hsol) as [tau [Agree [Htau Hout]]].
  exists tau. split; [|split; assumption]. apply cells_ok_env; auto.
Qed.

Lemma sql_row_complete is_x s cm final :
  NoDup (map fst cm) -> eliminate is_x (map fst cm) s = Some (inr final) ->
  exists s1, represents app (map fst cm) s s1 /\
  forall rho tau, cells_ok tau cm rho -> solves app tau s ->
  (forall l r, In (l, r) (unifs s1) -> peval tau l <> VNull) ->
  sql_row app cm final rho = Some (output app tau s).
Proof.
  intros ND He. destruct (row_choice_correct app is_x _ _ _ He) as [s1 [R HR]]. exists s1. split; [exact R|].
  intros rho tau C Hsol Hnn. apply sql_row_spec; [exact (eliminate_no_unifs _ _ _ _ He)|].
  apply (proj2 (HR _)); [|exact Hsol | exact Hnn]. apply (cells_ok_env tau cm rho ND), C.
Qed.

(* Soundness: every row the SQL emits for a row choice is the head row of a derivation of the rule with
   exactly that row choice. *)
Theorem compile_sound is_x r final rho out :
  compiled is_x r final -> wf_choice (x_cols (extract r)) rho ->
  sql_row app (x_cols (extract r)) final rho = Some out ->
  exists tau, derives tau rho r /\ head_row app tau r = out.
Proof.
  intros Hc Hwf Hs.
  destruct (sql_row_sound is_x _ _ _ _ _ (extract_cols_NoDup r) Hwf Hc Hs) as [tau [C [Hsol Hout]]].
  destruct (extract_correct tau rho r C) as [S O].
  exists tau. split; [apply S, Hsol | rewrite <- O; exact Hout].
Qed.

(* Completeness: a derivation tau of the rule for the row choice rho (tau also names the column variables:
   cells_ok, and satisfies the head "extract" unifications) passes the final WHERE, and the SELECT row is its
   head row, provided the equalities that elimination leaves in the structure s1 it reaches compare non-null
   values under tau. *)
Theorem derivation_emitted is_x r final : compiled is_x r final ->
  exists s1, represents app (map fst (x_cols (extract r))) (x_rs (extract r)) s1 /\
  forall rho tau, cells_ok tau (x_cols (extract r)) rho ->
  (forall l r0, In (l, r0) (fst (extract_head (k_head r) 0)) -> peval tau l = peval tau r0) ->
  derives tau rho r ->
  (forall l r0, In (l, r0) (unifs s1) -> peval tau l <> VNull) ->
  sql_row app (x_cols (extract r)) final rho = Some (head_row app tau r).
Proof.
  intros Hc. destruct (sql_row_complete is_x _ _ _ (extract_cols_NoDup r) Hc) as [s1 [R F]].
  exists s1. split; [exact R|]. intros rho tau C Hh D Hnn. destruct (extract_correct tau rho r C) as [S <-].
  apply (F rho tau C); [|exact Hnn]. apply S. split; [|exact D]. apply Forall_forall. intros [l r0]. apply Hh.
Qed.

(* the same with the non-null condition asked of every structure that represents the extracted one *)
Theorem compile_complete is_x r final rho tau :
  compiled is_x r final -> cells_ok tau (x_cols (extract r)) rho ->
  (forall l r0, In (l, r0) (fst (extract_head (k_head r) 0)) -> peval tau l = peval tau r0) ->
  derives tau rho r ->
  (forall s1 l r0, represents app (map fst (x_cols (extract r))) (x_rs (extract r)) s1 ->
     In (l, r0) (unifs s1) -> peval tau l <> VNull) ->
  sql_row app (x_cols (extract r)) final rho = Some (head_row app tau r).
Proof.
  intros Hc C Hh D Hnn. destruct (derivation_emitted is_x r final Hc) as [s1 [R F]].
  apply (F rho tau C Hh D). intros l r0. exact (Hnn s1 l r0 R).
Qed.

(* Two derivations of the rule for the same row choice (both under the hypotheses of compile_complete) have the
   same head row, the one the SQL emits. *)
Corollary head_row_determined_by_row_choice is_x r final rho tau1 tau2 :
  compiled is_x r final ->
  (forall tau, tau = tau1 \/ tau = tau2 ->
     cells_ok tau (x_cols (extract r)) rho /\
     (forall l r0, In (l, r0) (fst (extract_head (k_head r) 0)) -> peval tau l = peval tau r0) /\
     derives tau rho r /\
     (forall s1 l r0, represents app (map fst (x_cols (extract r))) (x_rs (extract r)) s1 ->
        In (l, r0) (unifs s1) -> peval tau l <> VNull)) ->
  head_row app tau1 r = head_row app tau2 r.
Proof.
  intros Hc H.
  destruct (H tau1 (or_introl eq_refl)) as [C1 [Hh1 [D1 N1]]].
  destruct (H tau2 (or_intror eq_refl)) as [C2 [Hh2 [D2 N2]]].
  pose proof (compile_complete is_x r final rho tau1 Hc C1 Hh1 D1 N1) as E1.
  pose proof (compile_complete is_x r final rho tau2 Hc C2 Hh2 D2 N2) as E2.
  rewrite E1 in E2. inversion E2. reflexivity.
Qed.

(* compile_complete read as an existence statement: under its hypotheses the SQL row for rho is defined and is
   the head row of a derivation, tau itself; wf_choice is not needed for that. *)
Corollary compile_exact is_x r final rho tau :
  compiled is_x r final -> wf_choice (x_cols (extract r)) rho ->
  cells_ok tau (x_cols (extract r)) rho ->
  (forall l r0, In (l, r0) (fst (extract_head (k_head r) 0)) -> peval tau l = peval tau r0) ->
  derives tau rho r ->
  (forall s1 l r0, represents app (map fst (x_cols (extract r))) (x_rs (extract r)) s1 ->
     In (l, r0) (unifs s1) -> peval tau l <> VNull) ->
  exists out tau', sql_row app (x_cols (extract r)) final rho = Some out /\
     out = head_row app tau r /\ derives tau' rho r /\ head_row app tau' r = out.
Proof.
  intros Hc _ C Hh D N. exists (head_row app tau r), tau.
  split; [exact (compile_complete is_x r final rho tau Hc C Hh D N)|]. split; [reflexivity|]. split; [exact D | reflexivity].
Qed.

End Correct.
