(* Soundness of the model of ElliminateInternalVariables (Core/Elim.v): every substitution step preserves the
   solutions of the rule structure projected on the extracted (table column) variables, and the head values, so
   the whole loop does (eliminate_sound); the WHERE equalities made of the remaining unifications are equivalent
   to them for non-null values.  The loop visits the unifications in list order, as the Python loop does; another
   visiting order is another list, so elimination_orders_agree compares structures whose lists are permutations. *)
From Coq Require Import List ZArith Bool Permutation.
Import ListNotations.
From LV Require Import Util.ListFacts Core.Syntax Core.Eval Core.EvalProofs Core.Elim.

Section PInd.
  Variable P : pexpr -> Prop.
  Hypothesis HVar : forall x, P (PVar x).
  Hypothesis HLit : forall v, P (PLit v).
  Hypothesis HBin : forall o a b, P a -> P b -> P (PBin o a b).
  Hypothesis HIf : forall c t e, P c -> P t -> P e -> P (PIf c t e).
  Hypothesis HApp : forall f args, Forall P args -> P (PApp f args).
  Fixpoint pexpr_ind' (e : pexpr) : P e :=
    match e with
    | PVar x => HVar x
    | PLit v => HLit v
    | PBin o a b => HBin o a b (pexpr_ind' a) (pexpr_ind' b)
    | PIf c t e' => HIf c t e' (pexpr_ind' c) (pexpr_ind' t) (pexpr_ind' e')
    | PApp f args => HApp f args (Forall_all pexpr_ind' args)
    end.
End PInd.

Lemma pvars_app f args : pvars (PApp f args) = flat_map pvars args.
Proof. simpl. induction args as [|x l IH]; simpl; [reflexivity|]. rewrite IH. reflexivity. Qed.

Lemma pexpr_eqb_true : forall a b, pexpr_eqb a b = true -> a = b.
Proof.
  induction a as [x|v|o a1 a2 IH1 IH2|c t e IHc IHt IHe|f args IH] using pexpr_ind'; intros b; destruct b; simpl; try discriminate.
  - intros H. f_equal. apply Nat.eqb_eq, H.
  - intros H. f_equal. apply val_eqb_eq, H.
  - intros H. apply andb_true_iff in H as [H H2]. apply andb_true_iff in H as [H0 H1].
    rewrite (IH1 _ H1), (IH2 _ H2). f_equal. clear - H0.
    destruct o, op; try (exfalso; exact (diff_false_true H0)); reflexivity.
  - intros H. apply andb_true_iff in H as [H H3]. apply andb_true_iff in H as [H1 H2].
    rewrite (IHc _ H1), (IHt _ H2), (IHe _ H3). reflexivity.
  - intros H. apply andb_true_iff in H as [H0 H]. apply Nat.eqb_eq in H0. subst. f_equal.
    revert args0 H. induction IH as [|x l Hx _ IHl]; intros [|y l0]; try discriminate; [reflexivity|].
    intros H. apply andb_true_iff in H as [H1 H2]. f_equal; [apply Hx, H1 | apply IHl, H2].
Qed.

Section Sound.
Variable app : nat -> list val -> val.
Notation peval := (peval app).
Notation solves := (solves app).
Notation output := (output app).

Definition upd (sg : var -> val) (v : var) (x : val) : var -> val :=
  fun y => if Nat.eqb y v then x else sg y.

Lemma peval_ext sg sg' e : Forall (fun x => sg x = sg' x) (pvars e) -> peval sg e = peval sg' e.
Proof.
  induction e as [x|v|o a b IHa IHb|c t e IHc IHt IHe|f args IH] using pexpr_ind'.
  - apply Forall_inv.
  - reflexivity.
  - intros [Ha Hb]%Forall_app. simpl. rewrite (IHa Ha), (IHb Hb). reflexivity.
  - intros [Hc [Ht He]%Forall_app]%Forall_app. simpl. rewrite (IHc Hc), (IHt Ht), (IHe He). reflexivity.
  - rewrite pvars_app. intros H%Forall_flat_map. cbn [Elim.peval]. f_equal.
    rewrite Forall_forall in IH, H. apply map_ext_in. intros a Ha. exact (IH a Ha (H a Ha)).
Qed.

Lemma peval_subst sg v r e : peval sg (psubst v r e) = peval (upd sg v (peval sg r)) e.
Proof.
  induction e as [x|u|o a b IHa IHb|c t e IHc IHt IHe|f args IH] using pexpr_ind'.
  - simpl. unfold upd. destruct (Nat.eqb x v); reflexivity.
  - reflexivity.
  - simpl. rewrite IHa, IHb. reflexivity.
  - simpl. rewrite IHc, IHt, IHe. reflexivity.
  - cbn [psubst Elim.peval]. f_equal. rewrite map_map. apply map_ext_Forall, IH.
Qed.

Lemma peval_upd_fresh sg v x e : memv v (pvars e) = false -> peval (upd sg v x) e = peval sg e.
Proof.
  intros H. apply peval_ext, Forall_forall. intros y Hy. unfold upd. destruct (Nat.eqb y v) eqn:E; [|reflexivity].
  apply Nat.eqb_eq in E. subst. apply memv_In in Hy. congruence.
Qed.

(* solves, read as two Foralls: the structure operations are map, ++ and filter on these lists *)
Definition unif_holds (sg : var -> val) (u : pexpr * pexpr) : Prop := peval sg (fst u) = peval sg (snd u).
Definition con_holds (sg : var -> val) (c : pexpr) : Prop := truthy (peval sg c) = true.

Lemma solves_Forall sg s : solves sg s <-> Forall (unif_holds sg) (unifs s) /\ Forall (con_holds sg) (cons s).
Proof.
  unfold Elim.solves. rewrite !Forall_forall. split; intros [H1 H2]; (split; [|exact H2]).
  - intros [l r]. apply H1.
  - intros l r. apply (H1 (l, r)).
Qed.

Lemma peval_agree_rs sg sg' s : (forall x, In x (rs_vars s) -> sg x = sg' x) ->
  (forall f e, In (f, e) (sel s) -> peval sg e = peval sg' e) /\
  (forall l r, In (l, r) (unifs s) -> peval sg l = peval sg' l /\ peval sg r = peval sg' r) /\
  (forall c, In c (cons s) -> peval sg c = peval sg' c).
Proof.
  intros A. apply Forall_forall in A. unfold rs_vars in A.
  apply Forall_app in A as [S [U C]%Forall_app]. rewrite Forall_flat_map, Forall_forall in S, U, C.
  split; [|split].
  - intros f e Hin. exact (peval_ext _ _ _ (S _ Hin)).
  - intros l r Hin. destruct (proj1 (Forall_app _ _ _) (U _ Hin)) as [L R]. split; apply peval_ext; assumption.
  - intros c Hin. exact (peval_ext _ _ _ (C _ Hin)).
Qed.

Lemma solves_agree sg sg' s : (forall x, In x (rs_vars s) -> sg x = sg' x) -> solves sg s -> solves sg' s.
Proof.
  intros A [H1 H2]. destruct (peval_agree_rs sg sg' s A) as [_ [U C]]. split.
  - intros l r Hin. destruct (U l r Hin) as [<- <-]. exact (H1 l r Hin).
  - intros c Hin. rewrite <- (C c Hin). exact (H2 c Hin).
Qed.

Lemma output_agree sg sg' s : (forall x, In x (rs_vars s) -> sg x = sg' x) -> output sg s = output sg' s.
Proof.
  intros A. apply map_ext_in. intros [f e] Hin. cbn [fst snd]. f_equal.
  exact (proj1 (peval_agree_rs sg sg' s A) f e Hin).
Qed.

(* E: the extracted variables (row choice).  s' represents s: every solution of s solves s' with the
   same head values, and every solution of s' is a solution of s after re-defining variables outside E. *)
Definition represents (E : list var) (s s' : rs) : Prop :=
  (forall sg, solves sg s -> solves sg s' /\ output sg s' = output sg s) /\
  (forall sg', solves sg' s' ->
     exists sg, solves sg s /\ output sg s = output sg' s' /\ forall x, In x E -> sg x = sg' x).

Lemma represents_refl E s : represents E s s.
Proof. split; intros sg H; [split; [exact H | reflexivity] | exists sg; auto]. Qed.

Lemma represents_trans E s1 s2 s3 : represents E s1 s2 -> represents E s2 s3 -> represents E s1 s3.
Proof.
  intros [F1 B1] [F2 B2]. split.
  - intros sg H. destruct (F1 sg H) as [H2 O2]. destruct (F2 sg H2) as [H3 O3]. split; [exact H3 | congruence].
  - intros sg3 H3. destruct (B2 sg3 H3) as [sg2 [H2 [O2 A2]]]. destruct (B1 sg2 H2) as [sg1 [H1 [O1 A1]]].
    exists sg1. split; [exact H1|]. split; [congruence|]. intros x Hx. rewrite A1, A2 by exact Hx. reflexivity.
Qed.

Lemma output_subst sg v r s : output sg (subst_rs v r s) = output (upd sg v (peval sg r)) s.
Proof.
  unfold output, subst_rs. cbn [sel]. rewrite map_map. apply map_ext. intros [f e]. simpl.
  rewrite peval_subst. reflexivity.
Qed.

Lemma solves_subst sg v r s : solves sg (subst_rs v r s) <-> solves (upd sg v (peval sg r)) s.
Proof.
  rewrite !solves_Forall. cbn [subst_rs unifs cons]. rewrite !Forall_map. unfold unif_holds, con_holds. cbn [fst snd].
  split; intros [H1 H2]; split.
  - revert H1. apply Forall_impl. intros u. rewrite !peval_subst. auto.
  - revert H2. apply Forall_impl. intros c. rewrite peval_subst. auto.
  - revert H1. apply Forall_impl. intros u. rewrite !peval_subst. auto.
  - revert H2. apply Forall_impl. intros c. rewrite peval_subst. auto.
Qed.

Theorem step_represents E s v r :
  memv v E = false -> In (PVar v, r) (unifs s) \/ In (r, PVar v) (unifs s) ->
  represents E s (subst_rs v r s).
Proof.
  intros HE Hin. split.
  - intros sg H.
    (* a solution already gives v the value of r, so the update changes nothing *)
    assert (X : forall y, In y (rs_vars s) -> sg y = upd sg v (peval sg r) y).
    { intros y _. unfold upd. destruct (Nat.eqb_spec y v) as [->|]; [|reflexivity].
      destruct Hin as [Hin|Hin]; [|symmetry]; exact (proj1 H _ _ Hin). }
    split; [apply solves_subst; exact (solves_agree _ _ _ X H) | rewrite output_subst; symmetry; exact (output_agree _ _ _ X)].
  - intros sg' H. exists (upd sg' v (peval sg' r)). split; [apply solves_subst, H|]. split; [symmetry; apply output_subst|].
    intros x Hx. unfold upd. destruct (Nat.eqb_spec x v) as [->|]; [|reflexivity].
    apply memv_In in Hx. congruence.
Qed.

(* dropping u with u.left == u.right *)
Lemma drop_trivial_represents E s : represents E s (drop_trivial s).
Proof.
  assert (S : forall sg, solves sg s <-> solves sg (drop_trivial s)).
  { intros sg. unfold solves, drop_trivial. cbn [unifs cons]. split; intros [H1 H2]; split; try exact H2.
    - intros l r Hin. apply filter_In in Hin as [Hin _]. apply H1, Hin.
    - intros l r Hin. destruct (pexpr_eqb l r) eqn:Eq.
      + apply pexpr_eqb_true in Eq. subst. reflexivity.
      + apply H1. apply filter_In. split; [exact Hin|]. simpl. rewrite Eq. reflexivity. }
  split.
  - intros sg H. split; [apply S, H | reflexivity].
  - intros sg H. exists sg. split; [apply S, H | auto].
Qed.

Section Loop.
Variable is_x : var -> bool.
Variable E V : list var.
Hypothesis V_internal : forall v, memv v V = true -> memv v E = false.

Lemma fires_represents s l r v : fires is_x E V l r = Some v ->
  In (l, r) (unifs s) \/ In (r, l) (unifs s) -> represents E s (subst_rs v r s).
Proof.
  unfold fires. destruct (pexpr_eqb l r); [discriminate|]. destruct l as [x| | | |]; try discriminate.
  (* of the tests under which the loop substitutes, only "x is internal" is needed *)
  destruct (memv x V) eqn:Ev; [|discriminate]. destruct (_ && _); [|discriminate].
  intros [= <-]. apply step_represents, V_internal, Ev.
Qed.

Lemma visit_represents idx s : represents E s (fst (visit is_x E V idx s)).
Proof.
  unfold visit. destruct (nth_error (unifs s) idx) as [[l r]|] eqn:En; [|apply represents_refl].
  destruct (match fires is_x E V l r with Some v => (subst_rs v r s, true) | None => (s, false) end) as [s1 c1] eqn:E1.
  assert (R1 : represents E s s1).
  { destruct (fires is_x E V l r) as [v|] eqn:Ef; injection E1 as <- _; [|apply represents_refl].
    exact (fires_represents s l r v Ef (or_introl (nth_error_In _ _ En))). }
  destruct (nth_error (unifs s1) idx) as [[l1 r1]|] eqn:En1; [|exact R1].
  destruct (fires is_x E V r1 l1) as [v|] eqn:Ef; [|exact R1].
  exact (represents_trans E s s1 _ R1 (fires_represents s1 r1 l1 v Ef (or_intror (nth_error_In _ _ En1)))).
Qed.

Lemma pass_represents n : forall idx s c, represents E s (fst (pass is_x E V n idx s c)).
Proof.
  induction n as [|n IH]; intros idx s c; cbn [pass]; [apply represents_refl|].
  pose proof (visit_represents idx s) as R. destruct (visit is_x E V idx s) as [s' c'].
  exact (represents_trans E s s' _ R (IH _ _ _)).
Qed.

Lemma rounds_represents fuel : forall s s', rounds is_x E V fuel s = Some s' -> represents E s s'.
Proof.
  induction fuel as [|fuel IH]; intros s s' H; [discriminate|]. cbn [rounds] in H.
  pose proof (represents_trans E s _ _ (drop_trivial_represents E s)
                (pass_represents (length (unifs (drop_trivial s))) 0 (drop_trivial s) false)) as R.
  destruct (pass is_x E V (length (unifs (drop_trivial s))) 0 (drop_trivial s) false) as [s1 []].
  - exact (represents_trans E s s1 s' R (IH s1 s' H)).
  - injection H as <-. exact R.
Qed.
End Loop.

(* the structure handed to AsSql: remaining unifications as WHERE equalities *)
Definition where_holds (sg : var -> val) (s : rs) : Prop :=
  (forall l r, In (l, r) (unifs s) -> pexpr_eqb l r = false -> sql_eq (peval sg l) (peval sg r) = true) /\
  (forall c, In c (cons s) -> truthy (peval sg c) = true).

Lemma truthy_OEq sg l r : truthy (peval sg (PBin OEq l r)) = sql_eq (peval sg l) (peval sg r).
Proof.
  cbn [Elim.peval]. unfold eval_bin, cmp_val, sql_eq.
  destruct (is_null (peval sg l)), (is_null (peval sg r)); simpl; try reflexivity.
  destruct (val_eqb (peval sg l) (peval sg r)); reflexivity.
Qed.

(* UnificationsToConstraints: the unifications that are left, other than l == l, become constraints l = r *)
Lemma unifications_to_constraints sg s :
  solves sg {| sel := sel s; unifs := [];
               cons := cons s ++ map (fun u => PBin OEq (fst u) (snd u))
                                     (filter (fun u => negb (pexpr_eqb (fst u) (snd u))) (unifs s)) |}
  <-> where_holds sg s.
Proof.
  rewrite solves_Forall. cbn [unifs cons]. rewrite Forall_app, Forall_map, !Forall_forall. unfold where_holds, con_holds.
  split.
  - intros [_ [H2 H1]]. split; [|exact H2]. intros l r Hin Hne. rewrite <- truthy_OEq.
    apply (H1 (l, r)), filter_In. cbn [fst snd]. rewrite Hne. auto.
  - intros [H1 H2]. split; [intros u []|]. split; [exact H2|]. intros [l r] Hin.
    apply filter_In in Hin as [Hin Hne]. rewrite truthy_OEq. apply (H1 l r Hin), negb_true_iff, Hne.
Qed.

(* Elimination is sound: if eliminate succeeds with s', the loop has reached a structure s1 such that
   (1) no internal variable is left in s1, hence in s' (this is checked by the model: internal_vars = []),
   (2) every solution of the original structure solves s1 with the same head values, and every solution of s1
       comes from a solution of the original structure that agrees on the extracted variables and has the same
       head values (represents),
   (3) s' has the SELECT of s1, and a valuation solves s' exactly when it satisfies the final WHERE of s1
       (where_holds; by where_is_unification it then solves s1). *)
Theorem eliminate_sound is_x E s s' :
  eliminate is_x E s = Some (inr s') ->
  exists s1,
    represents E s s1 /\ internal_vars E s1 = [] /\ sel s' = sel s1 /\
    (forall sg, solves sg s' <-> where_holds sg s1).
Proof.
  unfold eliminate. intros H.
  destruct (rounds is_x E (internal_vars E s) (S (S (length (internal_vars E s)))) s) as [s1|] eqn:Er; [|discriminate].
  destruct (internal_vars E s1) eqn:Ei; [|discriminate].
  injection H as <-. exists s1. split.
  - apply (rounds_represents is_x E (internal_vars E s)) in Er; [exact Er|].
    intros v Hv. apply memv_In, filter_In in Hv. apply negb_true_iff, Hv.
  - split; [exact Ei|]. split; [reflexivity|]. intros sg. apply unifications_to_constraints.
Qed.

Theorem where_is_unification sg s :
  where_holds sg s -> solves sg s.
Proof.
  intros [H1 H2]. split; [|exact H2]. intros l r Hin. destruct (pexpr_eqb l r) eqn:Eq.
  - apply pexpr_eqb_true in Eq. subst. reflexivity.
  - specialize (H1 l r Hin Eq). unfold sql_eq in H1. apply andb_true_iff in H1 as [_ H1]. apply val_eqb_eq, H1.
Qed.

Theorem unification_is_where_when_not_null sg s :
  solves sg s ->
  (forall l r, In (l, r) (unifs s) -> peval sg l <> VNull) ->
  where_holds sg s.
Proof.
  intros [H1 H2] Hn. split; [|exact H2]. intros l r Hin _. unfold sql_eq.
  rewrite <- (H1 l r Hin), (proj2 (val_eqb_eq _ _) eq_refl).
  destruct (peval sg l) eqn:E; try reflexivity. exfalso. eapply Hn; eauto.
Qed.

Lemma where_holds_agree sg sg' s : (forall x, In x (rs_vars s) -> sg x = sg' x) ->
  where_holds sg s -> where_holds sg' s.
Proof.
  intros A [H1 H2]. destruct (peval_agree_rs sg sg' s A) as [_ [U C]]. split.
  - intros l r Hin Hne. destruct (U l r Hin) as [<- <-]. exact (H1 l r Hin Hne).
  - intros c Hin. rewrite <- (C c Hin). exact (H2 c Hin).
Qed.

End Sound.

Section RowChoice.
Variable app : nat -> list val -> val.

Lemma no_internal_all_extracted E s : internal_vars E s = [] -> forall x, In x (rs_vars s) -> In x E.
Proof. intros H x Hx. apply memv_In, negb_false_iff, (proj1 (filter_nil_iff _ _) H x Hx). Qed.

(* The WHERE and SELECT computed by elimination are right for every row choice.
   rho: the values of the extracted variables (one row per table of the FROM list); s1: the structure the
   loop reaches, whose remaining unifications become the WHERE equalities.
   (<-) whenever rho passes the final WHERE there is a solution of the rule structure that extends rho on the
        extracted variables, and the final SELECT computes its head values;
   (->) every solution of the rule structure under which the remaining equalities of s1 compare non-null
        values passes the final WHERE with the same head values. *)
Theorem row_choice_correct is_x E s s' : eliminate is_x E s = Some (inr s') ->
  exists s1, represents app E s s1 /\
  forall rho : var -> val,
  (solves app rho s' ->
     exists sg, (forall x, In x E -> sg x = rho x) /\ solves app sg s /\ output app sg s = output app rho s') /\
  (forall sg, (forall x, In x E -> sg x = rho x) -> solves app sg s ->
     (forall l r, In (l, r) (unifs s1) -> peval app sg l <> VNull) ->
     solves app rho s' /\ output app rho s' = output app sg s).
Proof.
  intros H. destruct (eliminate_sound app is_x E s s' H) as [s1 [R [Hint [Hsel Hw]]]].
  exists s1. split; [exact R|]. intros rho.
  assert (Hout : forall sg, output app sg s' = output app sg s1).
  { intros sg. unfold output. rewrite Hsel. reflexivity. }
  destruct R as [F B]. split.
  - intros Hs. apply Hw, where_is_unification in Hs. destruct (B rho Hs) as [sg [Hsg [Ho A]]].
    exists sg. split; [exact A|]. split; [exact Hsg|]. rewrite Ho, Hout. reflexivity.
  - intros sg A Hsg Hnn. destruct (F sg Hsg) as [Hs1 Ho].
    assert (Agree : forall x, In x (rs_vars s1) -> sg x = rho x).
    { intros x Hx. apply A. eapply no_internal_all_extracted; eauto. }
    split.
    + apply Hw, (where_holds_agree app sg), unification_is_where_when_not_null; assumption.
    + rewrite Hout, <- Ho. symmetry. apply output_agree, Agree.
Qed.

(* the same with the non-null condition asked of every structure that represents s (elimination's own s1 is
   one of them) *)
Theorem eliminate_row_choice is_x E s s' : eliminate is_x E s = Some (inr s') ->
  forall rho : var -> val,
  (solves app rho s' ->
     exists sg, (forall x, In x E -> sg x = rho x) /\ solves app sg s /\ output app sg s = output app rho s') /\
  (forall sg, (forall x, In x E -> sg x = rho x) -> solves app sg s ->
     (forall s1 l r, represents app E s s1 -> In (l, r) (unifs s1) -> peval app sg l <> VNull) ->
     solves app rho s' /\ output app rho s' = output app sg s).
Proof.
  intros H rho. destruct (row_choice_correct is_x E s s' H) as [s1 [R HR]]. destruct (HR rho) as [B F].
  split; [exact B|]. intros sg A Hsg Hnn. apply (F sg A Hsg). intros l r. exact (Hnn s1 l r R).
Qed.
End RowChoice.

Section Orders.
Variable app : nat -> list val -> val.

Definition same_structure (s t : rs) : Prop :=
  sel s = sel t /\ Permutation (unifs s) (unifs t) /\ Permutation (cons s) (cons t).

Lemma solves_same_structure sg s t : same_structure s t -> solves app sg s -> solves app sg t.
Proof.
  intros [_ [Pu Pc]] H. apply solves_Forall in H as [H1 H2]. apply solves_Forall.
  split; [exact (Permutation_Forall Pu H1) | exact (Permutation_Forall Pc H2)].
Qed.

(* two orderings of the same unifications and constraints on which the loop succeeds accept the same row
   choices with the same head values (under the non-null condition of eliminate_row_choice, asked here of t under every valuation) *)
Theorem elimination_orders_agree is_x E s t s' t' :
  same_structure s t ->
  eliminate is_x E s = Some (inr s') -> eliminate is_x E t = Some (inr t') ->
  forall rho, solves app rho s' ->
  (forall sg t1 l r, represents app E t t1 -> In (l, r) (unifs t1) -> peval app sg l <> VNull) ->
  solves app rho t' /\ output app rho t' = output app rho s'.
Proof.
  intros Same Hs Ht rho Hrho Hnn.
  destruct (row_choice_correct app is_x E s s' Hs) as [s1 [_ HS]].
  destruct (proj1 (HS rho) Hrho) as [sg [A [Hsg Ho]]].
  destruct (row_choice_correct app is_x E t t' Ht) as [t1 [Rt HT]].
  destruct (proj2 (HT rho) sg A (solves_same_structure sg s t Same Hsg) (fun l r => Hnn sg t1 l r Rt)) as [H1 H2].
  split; [exact H1|]. rewrite H2, <- Ho. unfold output. rewrite (proj1 Same). reflexivity.
Qed.
End Orders.
