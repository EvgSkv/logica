(* The order SortUnnestings gives (Core/Unnest.v) does not depend on the order in which the `in` conjuncts were
   written: the chosen item is always the ready item with the least name, and names are distinct. *)
From Coq Require Import List String Bool Permutation NArith OrderedTypeEx.
Import ListNotations.
From LV Require Import Util.ListFacts Util.SortedFacts Core.Unnest Core.UnnestProofs.

(* String.ltb (byte order, which is Python's str order on UTF-8) is a strict total order.  The library
   proves it for String_as_OT.lt, which cmp_lt ties to String.compare. *)
Lemma ascii_lt_trans a b c : Ascii.compare a b = Lt -> Ascii.compare b c = Lt -> Ascii.compare a c = Lt.
Proof. exact (N.lt_trans _ _ _). Qed.

Lemma str_lt_trans : forall a b c, String.compare a b = Lt -> String.compare b c = Lt -> String.compare a c = Lt.
Proof.
  intros a b c H1%String_as_OT.cmp_lt H2%String_as_OT.cmp_lt.
  apply String_as_OT.cmp_lt. exact (String_as_OT.lt_trans _ _ _ H1 H2).
Qed.

Lemma compare_refl s : String.compare s s = Eq.
Proof. exact (proj2 (String_as_OT.cmp_eq s s) eq_refl). Qed.

Lemma ltb_lt a b : String.ltb a b = true <-> String.compare a b = Lt.
Proof. unfold String.ltb. destruct (String.compare a b); split; intros H; try discriminate; reflexivity. Qed.

Lemma ltb_irrefl a : String.ltb a a = false.
Proof. unfold String.ltb. rewrite compare_refl. reflexivity. Qed.

Lemma ltb_trans a b c : String.ltb a b = true -> String.ltb b c = true -> String.ltb a c = true.
Proof. intros H1%ltb_lt H2%ltb_lt. apply ltb_lt. exact (str_lt_trans _ _ _ H1 H2). Qed.

Lemma ltb_asym a b : String.ltb a b = true -> String.ltb b a = false.
Proof.
  intros H. destruct (String.ltb b a) eqn:E; [|reflexivity].
  pose proof (ltb_trans _ _ _ H E) as C. rewrite ltb_irrefl in C. discriminate.
Qed.

Lemma ltb_total a b : String.ltb a b = false -> String.ltb b a = false -> a = b.
Proof.
  unfold String.ltb. rewrite (String.compare_antisym b a).
  destruct (String.compare a b) eqn:E; simpl; try discriminate; intros _ _.
  apply String.compare_eq_iff, E.
Qed.

Lemma nlt_trans x y z : String.ltb x y = false -> String.ltb y z = false -> String.ltb x z = false.
Proof.
  intros H1 H2. destruct (String.ltb x z) eqn:E; [|reflexivity].
  destruct (String.ltb z y) eqn:Ezy.
  - rewrite (ltb_trans _ _ _ E Ezy) in H1. discriminate.
  - pose proof (ltb_total _ _ H2 Ezy). subst z. congruence.
Qed.

Section Least.
Variables allv done : list string.

Lemma min_ready_least : forall rem best u, min_ready allv done rem best = Some u ->
  (forall w, In w rem -> ready allv done w = true -> String.ltb (fst w) (fst u) = false) /\
  (forall b, best = Some b -> String.ltb (fst b) (fst u) = false).
Proof.
  induction rem as [|w r IH]; intros best u H; simpl in H.
  - subst best. split; [intros ? [] | intros b [= ->]; apply ltb_irrefl].
  - apply IH in H. destruct H as [Hr Hb]. split.
    + intros x [<-|Hx] Rx; [|apply Hr; assumption]. rewrite Rx in Hb.
      destruct best as [b|].
      * destruct (String.ltb (fst w) (fst b)) eqn:E; [apply (Hb w eq_refl)|].
        eapply nlt_trans; [exact E | apply (Hb b eq_refl)].
      * apply (Hb w eq_refl).
    + intros b Eb. subst best. destruct (ready allv done w); [|apply (Hb b eq_refl)].
      destruct (String.ltb (fst w) (fst b)) eqn:E; [|apply (Hb b eq_refl)].
      specialize (Hb w eq_refl).
      destruct (String.ltb (fst b) (fst u)) eqn:Ebu; [|reflexivity].
      rewrite (ltb_trans _ _ _ E Ebu) in Hb. discriminate.
Qed.

Lemma min_ready_unready : forall rem, (forall u, In u rem -> ready allv done u = false) ->
  min_ready allv done rem None = None.
Proof.
  induction rem as [|w r IH]; intros H; simpl; [reflexivity|].
  rewrite (H w (or_introl eq_refl)). apply IH. intros u Hu. apply H. right. exact Hu.
Qed.

Lemma min_ready_perm rem rem' : NoDup (map fst rem) -> Permutation rem rem' ->
  min_ready allv done rem None = min_ready allv done rem' None.
Proof.
  intros ND P.
  destruct (min_ready allv done rem None) as [u|] eqn:E1.
  - destruct (min_ready_pick _ _ _ _ E1) as [Hin Hr].
    destruct (min_ready_least _ _ _ E1) as [L1 _].
    destruct (min_ready allv done rem' None) as [u'|] eqn:E2.
    + destruct (min_ready_pick _ _ _ _ E2) as [Hin' Hr'].
      destruct (min_ready_least _ _ _ E2) as [L2 _].
      f_equal. apply (NoDup_map_inj fst rem ND); [exact Hin | exact (Permutation_in _ (Permutation_sym P) Hin') |].
      apply ltb_total.
      * apply L2; [exact (Permutation_in _ P Hin) | exact Hr].
      * apply L1; [exact (Permutation_in _ (Permutation_sym P) Hin') | exact Hr'].
    + apply min_ready_none in E2 as [_ Hall]. rewrite (Hall u (Permutation_in _ P Hin)) in Hr. discriminate.
  - apply min_ready_none in E1 as [_ Hall]. symmetry. apply min_ready_unready.
    intros u Hu. apply Hall. eapply Permutation_in; [apply Permutation_sym; exact P | exact Hu].
Qed.
End Least.

Lemma perm_filter {A} (f : A -> bool) l l' : Permutation l l' -> Permutation (filter f l) (filter f l').
Proof. exact (Permutation_filter f l l'). Qed.

Lemma sort_go_perm_input allv : forall fuel rem rem' done acc,
  NoDup (map fst rem) -> Permutation rem rem' ->
  sort_go fuel allv rem done acc = sort_go fuel allv rem' done acc.
Proof.
  induction fuel as [|f IH]; intros rem rem' done acc ND P; cbn [sort_go].
  - apply perm_nonempty, P.
  - rewrite (min_ready_perm allv done _ _ ND P).
    destruct (min_ready allv done rem' None) as [u|]; [|apply perm_nonempty, P].
    rewrite (IH _ (remove_name (fst u) rem') _ _ (nodup_remove _ _ ND) (Permutation_filter _ _ _ P)).
    apply perm_nonempty, P.
Qed.

Lemma deps_ext allv allv' u : (forall v, smem v allv = smem v allv') -> deps allv u = deps allv' u.
Proof. intros H. unfold deps. apply filter_ext. exact H. Qed.

Lemma min_ready_ext allv allv' done : (forall v, smem v allv = smem v allv') ->
  forall rem best, min_ready allv done rem best = min_ready allv' done rem best.
Proof.
  intros H. induction rem as [|w r IH]; intros best; simpl; [reflexivity|].
  unfold ready. rewrite (deps_ext _ _ w H). apply IH.
Qed.

Lemma sort_go_ext allv allv' : (forall v, smem v allv = smem v allv') ->
  forall fuel rem done acc, sort_go fuel allv rem done acc = sort_go fuel allv' rem done acc.
Proof.
  intros H. induction fuel as [|f IH]; intros rem done acc; destruct rem as [|w r]; try reflexivity.
  cbn [sort_go]. rewrite (min_ready_ext _ _ done H). destruct (min_ready allv' done (w :: r) None); [apply IH | reflexivity].
Qed.

Theorem sort_order_independent us us' :
  NoDup (map fst us) -> Permutation us us' -> sort_unnestings us = sort_unnestings us'.
Proof.
  intros ND P. unfold sort_unnestings. pose proof (Permutation_length P) as EL. unfold uitem in *. rewrite EL.
  rewrite (sort_go_ext (map fst us) (map fst us')).
  - apply sort_go_perm_input; assumption.
  - intros v. apply eq_true_iff_eq. rewrite !smem_In.
    split; apply Permutation_in; [|apply Permutation_sym]; apply Permutation_map, P.
Qed.
