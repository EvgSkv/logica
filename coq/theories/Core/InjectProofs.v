(* Correctness of injection (Core/Inject.v, model of universe.RunInjections + InjectStructure): over every row
   choice, the structure after one injection emits exactly the rows the caller's structure emits when the
   replaced table holds a row the callee's structure emits.  Since SQL emits one row per row choice of the FROM
   product, this is the bag equality "reading a predicate through its table = reading its body in place" that
   makes injection invisible in the result.  run_injections_sound carries one direction through a whole run. *)
From Coq Require Import List Bool Arith Lia.
Import ListNotations.
From LV Require Import Core.Syntax Core.Eval Core.EvalProofs Core.Elim Core.ElimProofs Core.Extract Core.ExtractProofs Core.Inject.

Section Correct.
Variable app : nat -> list val -> val.
Notation peval := (Elim.peval app).
Notation solves := (Elim.solves app).
Notation output := (Elim.output app).

Lemma lookup_output tau s f :
  lookup_field f (output tau s) = option_map (peval tau) (lookup_field f (sel s)).
Proof.
  unfold Elim.output. induction (sel s) as [|[g e] l IH]; simpl; [reflexivity|].
  destruct (Nat.eqb f g); [reflexivity | exact IH].
Qed.

Lemma nth_set_nth_same {A} (l : list A) n a b : nth_error (set_nth n a l) n = Some b <-> n < length l /\ b = a.
Proof.
  revert n. induction l as [|c l IH]; intros [|n]; cbn [set_nth nth_error length].
  1,2: split; [discriminate | lia].
  - split; [intros [= <-]; split; [lia | reflexivity] | intros [_ ->]; reflexivity].
  - rewrite IH. split; intros [L E]; (split; [lia | exact E]).
Qed.

Lemma nth_set_nth_other {A} (l : list A) n m a : n <> m -> nth_error (set_nth n a l) m = nth_error l m.
Proof.
  revert n m. induction l as [|b l IH]; intros [|n] [|m] H; simpl; try reflexivity; try congruence.
  apply IH. congruence.
Qed.

Lemma cells_solves_agree tau tau' s cm rho :
  (forall x, In x (rs_vars s) \/ In x (map fst cm) -> tau x = tau' x) ->
  cells tau cm rho -> solves tau s -> cells tau' cm rho /\ solves tau' s /\ output tau' s = output tau s.
Proof.
  intros A C S. split; [|split].
  - intros x t f Hin. destruct (C x t f Hin) as [rw [Hr Hv]]. exists rw. split; [exact Hr|].
    rewrite <- (A x); [exact Hv|]. right. exact (in_map fst _ _ Hin).
  - apply (solves_agree app tau); [|exact S]. intros x Hx. apply A. left. exact Hx.
  - symmetry. apply output_agree. intros x Hx. apply A. left. exact Hx.
Qed.

Lemma glue (L : list var) (tau1 tau2 : var -> val) :
  exists tau, (forall x, In x L -> tau x = tau2 x) /\ (forall x, ~ In x L -> tau x = tau1 x).
Proof.
  exists (fun x => if memv x L then tau2 x else tau1 x). split; intros x Hx.
  - rewrite (proj2 (memv_In x L) Hx). reflexivity.
  - destruct (memv x L) eqn:Em; [apply memv_In in Em; contradiction | reflexivity].
Qed.

Lemma reads_true tid x t f : reads tid (x, (t, f)) = true <-> t = tid.
Proof. unfold reads. simpl. apply Nat.eqb_eq. Qed.

Lemma reads_false tid x t f : negb (reads tid (x, (t, f))) = true <-> t <> tid.
Proof. unfold reads. cbn [fst snd]. rewrite negb_true_iff. apply Nat.eqb_neq. Qed.

Lemma cells_set_nth tau cm tid r rho :
  cells tau cm (set_nth tid r rho) <->
  cells tau (filter (fun c => negb (reads tid c)) cm) rho /\
  (forall x t f, In (x, (t, f)) (filter (reads tid) cm) -> tid < length rho /\ lookup_field f r = Some (tau x)).
Proof.
  split.
  - intros C. split; intros x t f Hin; apply filter_In in Hin as [Hin Hr]; destruct (C x t f Hin) as [rw [Hn Hl]].
    + apply reads_false in Hr. rewrite nth_set_nth_other in Hn by congruence. exists rw. auto.
    + apply reads_true in Hr as ->. apply nth_set_nth_same in Hn as [L ->]. auto.
  - intros [Co Cm] x t f Hin. destruct (Nat.eq_dec t tid) as [->|Hne].
    + destruct (Cm x tid f) as [L Hl]; [apply filter_In; split; [exact Hin | apply reads_true; reflexivity]|].
      exists r. split; [apply nth_set_nth_same; auto | exact Hl].
    + rewrite nth_set_nth_other by congruence. apply Co, filter_In. split; [exact Hin | apply reads_false, Hne].
Qed.

Lemma links_sound tau s1 : forall mine ls, links (sel s1) mine = Some ls ->
  (Forall (unif_holds app tau) ls <->
   forall x t f, In (x, (t, f)) mine -> lookup_field f (output tau s1) = Some (tau x)).
Proof.
  induction mine as [|[x [t f]] mine IH]; cbn [links]; intros ls H.
  - injection H as <-. split; [intros _ ? ? ? [] | constructor].
  - destruct (lookup_field f (sel s1)) as [ex|] eqn:El; [|discriminate].
    destruct (links (sel s1) mine) as [ls'|]; [|discriminate]. injection H as <-.
    rewrite Forall_cons_iff, (IH ls' eq_refl). unfold unif_holds at 1. cbn [fst snd Elim.peval]. split.
    + intros [H0 H] x0 t0 f0 [[= <- <- <-]|Hin]; [rewrite lookup_output, El, H0; reflexivity | exact (H x0 t0 f0 Hin)].
    + intros H. split; [|intros x0 t0 f0 Hin; apply (H x0 t0 f0); right; exact Hin].
      specialize (H x t f (or_introl eq_refl)). rewrite lookup_output, El in H. injection H as H. symmetry. exact H.
Qed.

Lemma extract_head_le : forall h n us n', extract_head h n = (us, n') -> n <= n'.
Proof.
  induction h as [|[f ex] h IH]; cbn [extract_head]; intros n us n' H.
  - injection H as _ <-. apply le_n.
  - destruct (is_pvar ex); [|exact (IH _ _ _ H)].
    destruct (extract_head h (S n)) as [us1 n1] eqn:E. injection H as _ <-. apply Nat.lt_le_incl, (IH _ _ _ E).
Qed.

(* the shared allocator: the callee's column variables start at the caller's mark *)
Lemma extract_at_cols_above cr n0 t0 x : In x (map fst (x_cols (extract_at cr n0 t0))) -> xvar n0 <= x.
Proof.
  unfold extract_at. destruct (extract_head (k_head cr) n0) as [uh n1] eqn:E1.
  generalize (extract_body_keys (k_body cr) t0 n1).
  destruct (extract_body (k_body cr) t0 n1) as [[[[ub co] cm] ts] n2]. cbn [x_cols]. intros [-> _] Hx.
  apply in_map_iff in Hx as [k [<- Hk]]. apply in_seq in Hk. apply extract_head_le in E1. unfold xvar. lia.
Qed.

Section Step.
Variable is_x : var -> bool.
Variables (st st' : ist) (tid : nat) (cr : crule) (s1 : rs).
Let e := extract_at cr (i_nv st) (i_nt st).
Hypothesis Hpre : pre_eliminate is_x (map fst (x_cols e)) (x_rs e) = Done s1.
Hypothesis Hinj : inject_one is_x st tid cr = Done st'.

Lemma inject_one_parts :
  exists ls, links (sel s1) (filter (reads tid) (i_cols st)) = Some ls /\
    i_rs st' = {| sel := sel (i_rs st); unifs := unifs (i_rs st) ++ unifs s1 ++ ls; cons := cons (i_rs st) ++ cons s1 |} /\
    i_cols st' = filter (fun c => negb (reads tid c)) (i_cols st) ++ x_cols e.
Proof.
  unfold inject_one in Hinj. fold e in Hinj. rewrite Hpre in Hinj.
  destruct (links (sel s1) (filter (reads tid) (i_cols st))) as [ls|] eqn:El; [|discriminate].
  injection Hinj as <-. exists ls. auto.
Qed.

(* for one valuation: the injected structure over rho is the callee over rho together with the caller over
   rho with the callee's output row in the place of the replaced table.  inject_forward and inject_backward
   are the two directions; the last conjunct only says that a replaced table that is read is a position of rho,
   which the left side knows from its cells *)
Lemma inject_one_iff tau rho :
  cells tau (i_cols st) (set_nth tid (output tau s1) rho) /\ solves tau (i_rs st) /\
  cells tau (x_cols e) rho /\ solves tau s1
  <->
  cells tau (i_cols st') rho /\ solves tau (i_rs st') /\
  (forall x t f, In (x, (t, f)) (filter (reads tid) (i_cols st)) -> tid < length rho).
Proof.
  destruct inject_one_parts as [ls [El [-> ->]]].
  pose proof (links_sound tau s1 _ _ El) as L.
  split.
  - intros [C [S [Ce Se]]]. apply cells_set_nth in C as [Co Cm].
    apply solves_Forall in S as [U Cn]. apply solves_Forall in Se as [Ue Cne]. split; [|split].
    + (* cells_ok (ExtractProofs) and cells (Inject) are the same definition *)
      apply cells_ok_app. split; assumption.
    + apply solves_Forall. cbn [unifs cons]. rewrite !Forall_app. repeat split; try assumption.
      apply L. intros x t f Hin. apply (Cm x t f Hin).
    + intros x t f Hin. apply (Cm x t f Hin).
  - intros [C [S Hl]]. apply cells_ok_app in C as [Co Ce].
    apply solves_Forall in S as [U Cn]. cbn [unifs cons] in U, Cn.
    apply Forall_app in U as [U Ul]. apply Forall_app in Ul as [Ue Ul]. apply Forall_app in Cn as [Cn Cne].
    split; [|split; [|split]].
    + apply cells_set_nth. split; [exact Co|]. intros x t f Hin. split; [exact (Hl x t f Hin) | exact (proj1 L Ul x t f Hin)].
    + apply solves_Forall. split; assumption.
    + exact Ce.
    + apply solves_Forall. split; assumption.
Qed.

(* Forward: a solution of the injected structure over the row choice rho is a solution of the callee over
   rho and of the caller over rho with the callee's output row in the place of the replaced table. *)
Theorem inject_forward tau rho :
  tid < length rho ->
  cells tau (i_cols st') rho -> solves tau (i_rs st') ->
  cells tau (x_cols e) rho /\ solves tau s1 /\
  cells tau (i_cols st) (set_nth tid (output tau s1) rho) /\ solves tau (i_rs st) /\
  output tau (i_rs st') = output tau (i_rs st).
Proof.
  intros Hlen Hc Hs. destruct (proj2 (inject_one_iff tau rho)) as [C [S [Ce Se]]]; [auto|].
  destruct inject_one_parts as [ls [_ [-> _]]]. auto.
Qed.

Definition apart : Prop :=
  forall x, In x (rs_vars s1) \/ In x (map fst (x_cols e)) ->
  ~ In x (rs_vars (i_rs st)) /\ ~ In x (map fst (i_cols st)).

(* Backward: a solution tau1 of the caller over rho with the row r in the place of the replaced table and a
   solution tau2 of the callee over rho with output r combine into one solution of the injected structure
   with the caller's output. *)
Theorem inject_backward tau1 tau2 rho r :
  apart ->
  cells tau1 (i_cols st) (set_nth tid r rho) -> solves tau1 (i_rs st) ->
  cells tau2 (x_cols e) rho -> solves tau2 s1 -> output tau2 s1 = r ->
  exists tau, cells tau (i_cols st') rho /\ solves tau (i_rs st') /\
              output tau (i_rs st') = output tau1 (i_rs st).
Proof.
  intros Hap C1 S1 C2 S2 <-.
  destruct (glue (rs_vars s1 ++ map fst (x_cols e)) tau1 tau2) as [tau [G2 G1]].
  assert (A2 : forall x, In x (rs_vars s1) \/ In x (map fst (x_cols e)) -> tau2 x = tau x).
  { intros x Hx. symmetry. apply G2, in_app_iff, Hx. }
  assert (A1 : forall x, In x (rs_vars (i_rs st)) \/ In x (map fst (i_cols st)) -> tau1 x = tau x).
  { intros x Hx. symmetry. apply G1. intros Hin. apply in_app_iff in Hin. destruct (Hap x Hin). destruct Hx; contradiction. }
  destruct (cells_solves_agree _ _ _ _ _ A2 C2 S2) as [C2' [S2' O2]].
  destruct (cells_solves_agree _ _ _ _ _ A1 C1 S1) as [C1' [S1' O1]]. rewrite <- O2 in C1'.
  destruct (proj1 (inject_one_iff tau rho)) as [C [S _]]; [auto|].
  exists tau. split; [exact C|]. split; [exact S|].
  destruct inject_one_parts as [ls [_ [-> _]]]. exact O1.
Qed.

(* Injection is invisible: over every row choice, the injected structure emits the row out iff the callee
   emits some row r and the caller, reading r from the replaced table, emits out. *)
Theorem inject_denotes rho out :
  apart -> tid < length rho ->
  (denotes app (i_rs st') (i_cols st') rho out <->
   exists r, denotes app s1 (x_cols e) rho r /\ denotes app (i_rs st) (i_cols st) (set_nth tid r rho) out).
Proof.
  intros Hap Hlen. split.
  - intros [tau [Hc [Hs <-]]]. destruct (inject_forward tau rho Hlen Hc Hs) as [C2 [S2 [C1 [S1 ->]]]].
    exists (output tau s1). split; exists tau; auto.
  - intros [r [[tau2 [C2 [S2 O2]]] [tau1 [C1 [S1 <-]]]]].
    destruct (inject_backward tau1 tau2 rho r Hap C1 S1 C2 S2 O2) as [tau [Hc [Hs Ho]]].
    exists tau. auto.
Qed.

(* the decidable side conditions the harness evaluates per instance imply `apart` *)
Theorem side_conditions_apart :
  callee_closed is_x st cr = true -> caller_below st = true -> apart.
Proof.
  unfold callee_closed, caller_below. fold e. rewrite Hpre. intros Hcl Hb.
  destruct (internal_vars (map fst (x_cols e)) s1) eqn:Ei; [|discriminate].
  apply andb_true_iff in Hb as [B1 B2]. rewrite forallb_forall in B1, B2.
  intros x Hx.
  assert (Hge : xvar (i_nv st) <= x).
  { apply (extract_at_cols_above cr (i_nv st) (i_nt st)).
    destruct Hx as [Hx|Hx]; [exact (no_internal_all_extracted _ _ Ei x Hx) | exact Hx]. }
  split.
  - intros H1. apply B1, Nat.ltb_lt in H1. lia.
  - intros H2. apply in_map_iff in H2 as [c [<- Hc]]. apply B2, Nat.ltb_lt in Hc. lia.
Qed.
End Step.

Lemma length_set_nth {A} n (a : A) l : length (set_nth n a l) = length l.
Proof. revert n. induction l as [|b l IH]; intros [|n]; simpl; auto. Qed.

Definition tabs_below (st : ist) : Prop := forall t p, In (t, p) (i_tabs st) -> t < i_nt st.

Lemma number_from_range ts : forall t0 t p, In (t, p) (number_from t0 ts) -> t0 <= t < t0 + length ts.
Proof.
  induction ts as [|q ts IH]; intros t0 t p H; simpl in *; [contradiction|].
  destruct H as [H|H]; [inversion H; subst; lia | apply IH in H; lia].
Qed.

Lemma replace_tab_In tid new ts t p : In (t, p) (replace_tab tid new ts) -> In (t, p) new \/ In (t, p) ts.
Proof.
  induction ts as [|[t' p'] ts IH]; simpl; [tauto|]. destruct (Nat.eqb t' tid).
  - intros H. apply in_app_or in H as [H|H]; [left; exact H | right; right; exact H].
  - intros [H|H]; [right; left; exact H | destruct (IH H); [left | right; right]; assumption].
Qed.

(* what run_injections_sound says of a whole run, for one valuation, with what chaining the steps needs: the
   table mark does not fall and table numbers stay below it *)
Definition reached (tau : var -> val) (st st' : ist) : Prop :=
  i_nt st <= i_nt st' /\ (tabs_below st -> tabs_below st') /\
  forall rho, i_nt st' <= length rho -> cells tau (i_cols st') rho -> solves tau (i_rs st') ->
  exists rho0, length rho0 = length rho /\ cells tau (i_cols st) rho0 /\ solves tau (i_rs st) /\
               output tau (i_rs st') = output tau (i_rs st).

Lemma reached_refl tau st : reached tau st st.
Proof. split; [lia|]. split; [auto|]. intros rho _ C S. exists rho. auto. Qed.

Lemma reached_trans tau st1 st2 st3 : reached tau st1 st2 -> reached tau st2 st3 -> reached tau st1 st3.
Proof.
  intros [M1 [B1 F1]] [M2 [B2 F2]]. split; [lia|]. split; [auto|]. intros rho L C S.
  destruct (F2 rho L C S) as [rho2 [L2 [C2 [S2 O2]]]].
  destruct (F1 rho2) as [rho1 [L1 [C1 [S1 O1]]]]; [lia | exact C2 | exact S2 |].
  exists rho1. split; [congruence|]. split; [exact C1|]. split; [exact S1 | congruence].
Qed.

Lemma inject_one_reached is_x tau st tid cr st' :
  inject_one is_x st tid cr = Done st' -> tid < i_nt st -> reached tau st st'.
Proof.
  intros H Ht. pose proof (fun s1 Hpre => inject_forward is_x st st' tid cr s1 Hpre H tau) as F.
  (* F goes back into the goal so that the case analysis also turns its premise into Done s1 = Done s1 *)
  revert H F. unfold inject_one. destruct (pre_eliminate _ _ _) as [s1| |]; try discriminate.
  destruct (links _ _) as [ls|]; [|discriminate]. intros [= <-] F. unfold reached, tabs_below. cbn [i_nt i_tabs].
  split; [lia|]. split.
  - intros Hb t p Hin. apply replace_tab_In in Hin as [Hin|Hin].
    + apply number_from_range in Hin. lia.
    + apply Hb in Hin. lia.
  - intros rho L C S. destruct (F s1 eq_refl rho) as [_ [_ [C0 [S0 O0]]]]; [lia | exact C | exact S|].
    exists (set_nth tid (output tau s1) rho). rewrite length_set_nth. auto.
Qed.

Lemma round_reached is_x D tau : forall snapshot st changed st' changed',
  inject_round is_x D snapshot st changed = Done (st', changed') ->
  (forall t p, In (t, p) snapshot -> t < i_nt st) -> reached tau st st'.
Proof.
  induction snapshot as [|[tid p] rest IH]; intros st changed st' changed' H Hs; cbn [inject_round] in H.
  - injection H as <- _. apply reached_refl.
  - destruct (def_of D p) as [cr|]; [|eapply IH; [exact H | intros t q Hin; apply (Hs t q); right; exact Hin]].
    destruct (inject_one is_x st tid cr) as [st1| |] eqn:E1; try discriminate.
    pose proof (inject_one_reached is_x tau st tid cr st1 E1 (Hs tid p (or_introl eq_refl))) as R1.
    apply (reached_trans tau st st1 st' R1), (IH _ _ _ _ H).
    intros t q Hin. specialize (Hs t q (or_intror Hin)). destruct R1 as [M _]. lia.
Qed.

Lemma run_reached is_x D tau : forall fuel st st',
  run_injections is_x D fuel st = Done st' -> tabs_below st -> reached tau st st'.
Proof.
  induction fuel as [|fuel IH]; intros st st' H Hb; cbn [run_injections] in H; [discriminate|].
  destruct (inject_round is_x D (i_tabs st) st false) as [[st1 ch]| |] eqn:Er; try discriminate.
  pose proof (round_reached is_x D tau _ _ _ _ _ Er Hb) as R1. destruct ch.
  - apply (reached_trans tau st st1 st' R1), (IH _ _ H), (proj1 (proj2 R1) Hb).
  - injection H as <-. exact R1.
Qed.

(* RunInjections is sound: a valuation that solves the structure RunInjections leaves, over a row choice rho
   that has a position for every allocated table number, solves the caller's original structure over a row
   choice of the same length (the replaced tables hold the rows their callees emit under the same valuation),
   with the same head row. *)
Theorem run_injections_sound is_x D tau : forall fuel st st' rho,
  run_injections is_x D fuel st = Done st' ->
  tabs_below st -> i_nt st' <= length rho ->
  cells tau (i_cols st') rho -> solves tau (i_rs st') ->
  exists rho0, length rho0 = length rho /\ cells tau (i_cols st) rho0 /\ solves tau (i_rs st) /\
               output tau (i_rs st') = output tau (i_rs st).
Proof. intros fuel st st' rho H Hb. exact (proj2 (proj2 (run_reached is_x D tau fuel st st' H Hb)) rho). Qed.

Lemma ist_of_rule_below r : tabs_below (ist_of_rule r).
Proof.
  unfold tabs_below, ist_of_rule. cbn [i_tabs i_nt]. intros t p Hin. apply number_from_range in Hin. lia.
Qed.

(* The query emitted after an injection: every row it produces for a row choice is a row the caller's
   structure produces when the replaced table holds a row the callee's structure produces. *)
Theorem injected_query_sound is_x st st' tid cr s1 final rho out :
  pre_eliminate is_x (map fst (x_cols (extract_at cr (i_nv st) (i_nt st)))) (x_rs (extract_at cr (i_nv st) (i_nt st))) = Done s1 ->
  inject_one is_x st tid cr = Done st' ->
  callee_closed is_x st cr = true -> caller_below st = true -> tid < length rho ->
  NoDup (map fst (i_cols st')) -> wf_choice (i_cols st') rho ->
  eliminate is_x (map fst (i_cols st')) (i_rs st') = Some (inr final) ->
  sql_row app (i_cols st') final rho = Some out ->
  exists r, denotes app s1 (x_cols (extract_at cr (i_nv st) (i_nt st))) rho r /\
            denotes app (i_rs st) (i_cols st) (set_nth tid r rho) out.
Proof.
  intros Hpre Hinj Hcl Hb Hlen ND Hwf He Hs.
  apply (inject_denotes is_x st st' tid cr s1 Hpre Hinj rho out); [|exact Hlen|].
  - eapply side_conditions_apart; eassumption.
  - eapply sql_row_sound; eassumption.
Qed.
End Correct.

(* a run that is Done with a given observation f, read off a default-valued match so that only the
   observation is evaluated to a normal form, not the whole final state *)
Lemma done_with {A B} (f : A -> B) (d : B) (o : outcome A) (b : B) :
  match o with Done a => f a | _ => d end = b -> d <> b -> exists a, o = Done a /\ f a = b.
Proof. destruct o as [a| |]; [intros H _; exists a; auto | contradiction | contradiction]. Qed.
