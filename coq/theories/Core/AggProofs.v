(* Aggregation in the reference evaluator: null inputs are ignored, nothing aggregates to null,
   integer inputs may arrive in any order (for ArgMin and ArgMax: when no two values tie),
   a distinct predicate has one row per key. *)
From Coq Require Import List ZArith Bool Permutation Lia.
Import ListNotations.
From LV Require Import Core.Syntax Core.Eval Core.EvalProofs Util.ListFacts Util.SortedFacts.

Definition documented (op : aggop) : bool :=
  match op with ASum | AMin | AMax | ACount | AList | ASet => true | _ => false end.

Lemma filter_idem {A} (f : A -> bool) l : filter f (filter f l) = filter f l.
Proof. apply filter_all_iff. intros x Hx. apply filter_In in Hx. apply Hx. Qed.

Theorem aggregate_ignores_null op vals : documented op = true ->
  aggregate op vals = aggregate op (filter (fun v => negb (is_null v)) vals).
Proof.
  intros H. destruct op; try discriminate; unfold aggregate; rewrite filter_idem; reflexivity.
Qed.

Theorem aggregate_nothing_is_null op vals : documented op = true ->
  forallb is_null vals = true -> aggregate op vals = Ok VNull.
Proof.
  intros H Hn.
  assert (E : filter (fun v => negb (is_null v)) vals = []).
  { apply filter_nil_iff. intros x Hx. rewrite (proj1 (forallb_forall _ _) Hn x Hx). reflexivity. }
  destruct op; try discriminate; unfold aggregate; rewrite E; reflexivity.
Qed.

Fixpoint all_int (l : list val) : bool :=
  match l with [] => true | VInt _ :: l' => all_int l' | _ => false end.

Definition int_val (v : val) : Prop := exists z, v = VInt z.

Lemma all_int_In l : all_int l = true -> forall v, In v l -> int_val v.
Proof.
  induction l as [|x l IH]; intros H v Hv; [contradiction|].
  destruct x; try discriminate. destruct Hv as [<-|Hv]; [eexists; reflexivity | exact (IH H v Hv)].
Qed.

Lemma all_int_map l : all_int l = true -> exists zs, l = map VInt zs.
Proof.
  induction l as [|v l IH]; intros H; [exists []; reflexivity|].
  destruct v; try discriminate. destruct (IH H) as [zs ->]. exists (z :: zs). reflexivity.
Qed.

Definition sum_step (acc : res val) (v : val) : res val := a <- acc ;; eval_bin OAdd a v.

Lemma sum_step_comm acc x y : int_val x -> int_val y ->
  sum_step (sum_step acc x) y = sum_step (sum_step acc y) x.
Proof.
  intros [x' ->] [y' ->]. destruct acc as [[]|]; try reflexivity. cbn. do 2 f_equal. lia.
Qed.

Definition pick_step (want_lt : bool) (acc : res val) (x : val) : res val :=
  a <- acc ;;
  match val_ltb x a with
  | Some lt => if Bool.eqb lt want_lt then (if val_eqb x a then Ok a else Ok x) else Ok a
  | None => Fail E_TYPE
  end.

Definition zpick (want_lt : bool) : Z -> Z -> Z := if want_lt then Z.min else Z.max.

Lemma pick_step_int w a x : pick_step w (Ok (VInt a)) (VInt x) = Ok (VInt (zpick w a x)).
Proof.
  (* both sides are case analyses on a ?= x *)
  cbn. rewrite Z.eqb_compare. unfold zpick, Z.min, Z.max, Z.ltb. rewrite (Z.compare_antisym a x).
  destruct w, (a ?= x)%Z; reflexivity.
Qed.

Lemma pick_step_comm w acc x y : int_val x -> int_val y ->
  pick_step w (pick_step w acc x) y = pick_step w (pick_step w acc y) x.
Proof.
  intros [x' ->] [y' ->]. destruct acc as [[|a| | |]|]; try reflexivity.
  rewrite !pick_step_int. do 2 f_equal. destruct w; cbn; lia.
Qed.

Lemma pick_seed_comm w x y : int_val x -> int_val y -> pick_step w (Ok x) y = pick_step w (Ok y) x.
Proof. intros [x' ->] [y' ->]. rewrite !pick_step_int. do 2 f_equal. destruct w; cbn; lia. Qed.

Lemma pick_ext_perm w a b : all_int a = true -> Permutation a b -> pick_ext w a = pick_ext w b.
Proof.
  intros H P. apply (fold1_perm (pick_step w) Ok (Ok VNull) (fun r => r) a b P); intros.
  - apply pick_step_comm; apply (all_int_In a H); assumption.
  - apply pick_seed_comm; apply (all_int_In a H); assumption.
Qed.

(* Count, List and Set sort their inputs by insertion; on integers that is insertion into a list of Z *)
Fixpoint zinsert (z : Z) (s : list Z) : list Z :=
  match s with
  | [] => [z]
  | x :: s' => if (x <? z)%Z then x :: zinsert z s' else z :: s
  end.

Lemma zinsert_nil x : zinsert x [] = [x].
Proof. reflexivity. Qed.

Lemma zinsert_cons x y t : zinsert x (y :: t) = if (x <=? y)%Z then x :: y :: t else y :: zinsert x t.
Proof. cbn [zinsert]. rewrite Z.ltb_antisym. destruct (x <=? y)%Z; reflexivity. Qed.

Lemma Zleb_total a b : (a <=? b)%Z = true \/ (b <=? a)%Z = true.
Proof. lia. Qed.

Lemma insert_sorted_int z s : insert_sorted (VInt z) (map VInt s) = Ok (map VInt (zinsert z s)).
Proof.
  induction s as [|x s IH]; cbn [map insert_sorted zinsert val_ltb]; [reflexivity|].
  destruct (x <? z)%Z; [rewrite IH|]; reflexivity.
Qed.

(* sort_vals inserts from the left, so the last input goes in last *)
Lemma sort_vals_int zs : sort_vals (map VInt zs) = Ok (map VInt (fold_right zinsert [] (rev zs))).
Proof.
  unfold sort_vals. rewrite <- fold_left_rev_right, <- map_rev.
  induction (rev zs) as [|z s IH]; cbn [map fold_right]; [reflexivity|].
  rewrite IH. apply insert_sorted_int.
Qed.

Theorem sort_vals_arrival_order a b : all_int a = true -> Permutation a b -> sort_vals a = sort_vals b.
Proof.
  intros H P. destruct (all_int_map a H) as [zs ->].
  destruct (Permutation_map_inv _ _ (Permutation_sym P)) as [zs' [-> P']].
  rewrite !sort_vals_int. do 2 f_equal.
  (* zinsert is insertion for Z.leb, a total order, and fold_right zinsert [] the sort by it *)
  apply (srt_perm_eq Z.leb zinsert zinsert_nil zinsert_cons Zleb_total Zle_bool_trans
           (fold_right zinsert []) eq_refl (fun x t => eq_refl)).
  - intros x y _ _. apply Zle_bool_antisym.
  - apply Permutation_rev', P'.
Qed.

(* Sum, Min and Max are folds whose steps commute on integers, ArgMin and ArgMax on integers that do not tie;
   Count, List and Set go through the sorted list, which is a function of the bag. *)
Theorem aggregate_arrival_order op vals vals' : documented op = true ->
  all_int (filter (fun v => negb (is_null v)) vals) = true -> Permutation vals vals' ->
  aggregate op vals = aggregate op vals'.
Proof.
  intros Hop H P. apply (Permutation_filter (fun v => negb (is_null v))) in P.
  pose proof (sort_vals_arrival_order _ _ H P) as E.
  destruct op; try discriminate; unfold aggregate.
  - rewrite (fold_left_perm _ _ _ P); [apply perm_nonempty, P|].
    intros. apply sum_step_comm; apply (all_int_In _ H); assumption.
  - apply pick_ext_perm; assumption.
  - apply pick_ext_perm; assumption.
  - rewrite E. apply perm_nonempty, P.
  - rewrite E. apply perm_nonempty, P.
  - rewrite E. apply perm_nonempty, P.
Qed.

Theorem sum_arrival_order vals vals' :
  all_int (filter (fun v => negb (is_null v)) vals) = true -> Permutation vals vals' ->
  aggregate ASum vals = aggregate ASum vals'.
Proof. exact (aggregate_arrival_order ASum vals vals' eq_refl). Qed.

Theorem min_max_arrival_order op vals vals' : op = AMin \/ op = AMax ->
  all_int (filter (fun v => negb (is_null v)) vals) = true -> Permutation vals vals' ->
  aggregate op vals = aggregate op vals'.
Proof. intros [-> | ->]; apply aggregate_arrival_order; reflexivity. Qed.

Theorem count_list_set_arrival_order op vals vals' : op = ACount \/ op = AList \/ op = ASet ->
  all_int (filter (fun v => negb (is_null v)) vals) = true -> Permutation vals vals' ->
  aggregate op vals = aggregate op vals'.
Proof. intros [-> | [-> | ->]]; apply aggregate_arrival_order; reflexivity. Qed.

Definition arg_pairs (vs : list val) : list (val * val) :=
  flat_map (fun v => match v with
                     | VRec [(_, a); (_, b)] => if is_null b then [] else [(a, b)]
                     | _ => [] end) vs.
Definition zof (v : val) : Z := match v with VInt z => z | _ => 0%Z end.

Definition arg_step (want_lt : bool) (acc : res (val * val)) (x : val * val) : res (val * val) :=
  a <- acc ;;
  match val_ltb (snd x) (snd a) with
  | Some lt => if Bool.eqb lt want_lt && negb (val_eqb (snd x) (snd a)) then Ok x else Ok a
  | None => Fail E_TYPE
  end.

(* x is strictly better than a: only then does it replace a, so the first of tied candidates stays *)
Definition zbetter (want_lt : bool) (x a : Z) : bool := if want_lt then (x <? a)%Z else (a <? x)%Z.

Lemma zbetter_neq w x y : x <> y -> zbetter w y x = negb (zbetter w x y).
Proof. unfold zbetter. destruct w; lia. Qed.

Lemma zbetter_trans w a x y : zbetter w x a = true -> zbetter w y a = false -> zbetter w y x = false.
Proof. unfold zbetter. destruct w; lia. Qed.

Lemma arg_step_int w pa a xa x :
  arg_step w (Ok (pa, VInt a)) (xa, VInt x) = Ok (if zbetter w x a then (xa, VInt x) else (pa, VInt a)).
Proof.
  cbn. rewrite Z.eqb_compare. unfold zbetter, Z.ltb. rewrite (Z.compare_antisym a x).
  destruct w, (a ?= x)%Z; reflexivity.
Qed.

Inductive untied : val * val -> val * val -> Prop :=
| untied_same p : untied p p
| untied_diff pa x qa y : x <> y -> untied (pa, VInt x) (qa, VInt y).

Lemma arg_step_comm w acc p q : untied p q ->
  arg_step w (arg_step w acc p) q = arg_step w (arg_step w acc q) p.
Proof.
  intros [|pa x qa y N]; [reflexivity|].
  destruct acc as [[aa [|a| | |]]|]; try reflexivity.
  rewrite !arg_step_int.
  destruct (zbetter w x a) eqn:Bx, (zbetter w y a) eqn:By; rewrite !arg_step_int, ?Bx, ?By; try reflexivity.
  - rewrite (zbetter_neq w x y N). destruct (zbetter w x y); reflexivity.
  - rewrite (zbetter_trans w a x y Bx By). reflexivity.
  - rewrite (zbetter_trans w a y x By Bx). reflexivity.
Qed.

Lemma arg_seed_comm w p q : untied p q -> arg_step w (Ok p) q = arg_step w (Ok q) p.
Proof.
  intros [|pa x qa y N]; [reflexivity|].
  rewrite !arg_step_int, (zbetter_neq w x y N). destruct (zbetter w x y); reflexivity.
Qed.

Theorem argmin_argmax_arrival_order want_lt vals vals' :
  all_int (map snd (arg_pairs vals)) = true ->
  NoDup (map (fun p => zof (snd p)) (arg_pairs vals)) ->
  Permutation vals vals' ->
  arg_ext want_lt vals = arg_ext want_lt vals'.
Proof.
  intros H ND P.
  assert (U : forall p q, In p (arg_pairs vals) -> In q (arg_pairs vals) -> untied p q).
  { intros p q Hp Hq. pose proof (NoDup_map_inj _ _ ND p q Hp Hq) as E.
    destruct (all_int_In _ H _ (in_map snd _ p Hp)) as [x Ex], (all_int_In _ H _ (in_map snd _ q Hq)) as [y Ey].
    destruct p as [pa pv], q as [qa qv]. cbn [snd] in *. subst pv qv.
    destruct (Z.eq_dec x y) as [Exy|N]; [rewrite (E Exy) | ]; constructor; exact N. }
  apply (fold1_perm (arg_step want_lt) Ok (Ok VNull) (fun r => p <- r ;; Ok (fst p)) (arg_pairs vals) (arg_pairs vals'));
    intros.
  - apply Permutation_flat_map, P.
  - apply arg_step_comm, U; assumption.
  - apply arg_seed_comm, U; assumption.
Qed.

Lemma mapM_ok_map {A B} (f : A -> res B) l r : mapM f l = Ok r ->
  Forall2 (fun a b => f a = Ok b) l r.
Proof.
  revert r. induction l as [|x l IH]; cbn [mapM]; intros r H.
  - injection H as <-. constructor.
  - apply bind_ok in H as [y [E H]]. apply bind_ok in H as [ys [Es [= <-]]].
    constructor; [exact E | exact (IH ys Es)].
Qed.

(* the keys that group_rows makes one row each for, in order of first occurrence *)
Definition keys_of (keyf : list field) (pre : list row) : list (list val) :=
  fold_left (fun acc r =>
               let k := map (fun f => match lookup_field f r with Some v => v | None => VNull end) keyf in
               if existsb (fun k' => list_eqb val_eqb k k') acc then acc else acc ++ [k]) pre [].

Definition pairwise_distinct (ks : list (list val)) : Prop :=
  forall i j a b, nth_error ks i = Some a -> nth_error ks j = Some b -> i <> j ->
  list_eqb val_eqb a b = false.

Lemma key_eqb_eq a b : list_eqb val_eqb a b = true <-> a = b.
Proof. revert a b. apply (list_eqb_eq val_eqb val_eqb_eq). intros [|] [|]; reflexivity. Qed.

Lemma keys_of_NoDup keyf pre : NoDup (keys_of keyf pre).
Proof.
  unfold keys_of. set (step := fun _ _ => _).
  enough (G : forall acc, NoDup acc -> NoDup (fold_left step pre acc)) by apply G, NoDup_nil.
  induction pre as [|r pre IH]; intros acc H; [exact H|].
  apply IH. unfold step. destruct (existsb _ acc) eqn:E; [exact H|].
  apply (existsb_eqb_false _ key_eqb_eq) in E.
  apply NoDup_app; [exact H | repeat constructor; intros [] | intros x Hx [<-|[]]; exact (E Hx)].
Qed.

Theorem distinct_keys_once keyf pre : pairwise_distinct (keys_of keyf pre).
Proof.
  intros i j a b Hi Hj Hij. apply (eqb_false_iff _ key_eqb_eq). intros <-.
  apply Hij, (proj1 (NoDup_nth_error _) (keys_of_NoDup keyf pre)); [|congruence].
  apply nth_error_Some. congruence.
Qed.
