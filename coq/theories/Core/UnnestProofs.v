(* Proofs about Core/Unnest.v (model of RuleStructure.SortUnnestings):
   the result is a permutation of the items, every item comes after the items whose variables its list
   mentions (so the emitted FROM list is well scoped left to right), and the procedure rejects ONLY when no
   well scoped order exists (a genuine circular dependency). *)
From Coq Require Import List String Bool Arith Permutation.
Import ListNotations.
From LV Require Import Util.ListFacts Util.SortedFacts Core.Unnest.

Lemma smem_In x l : smem x l = true <-> In x l.
Proof. exact (existsb_eqb_In String.eqb String.eqb_eq x l). Qed.

Lemma min_ready_some allv done : forall rem best u,
  min_ready allv done rem best = Some u -> (In u rem /\ ready allv done u = true) \/ best = Some u.
Proof.
  induction rem as [|w r IH]; intros best u H; simpl in H; [right; exact H|].
  apply IH in H. destruct H as [[Hin Hr]|H]; [left; split; [right; exact Hin | exact Hr]|].
  destruct (ready allv done w) eqn:Er; [|right; exact H].
  destruct best as [b|].
  - destruct (String.ltb (fst w) (fst b)); [|right; exact H].
    injection H as <-. left. split; [left; reflexivity | exact Er].
  - injection H as <-. left. split; [left; reflexivity | exact Er].
Qed.

Lemma min_ready_none allv done : forall rem best,
  min_ready allv done rem best = None -> best = None /\ forall u, In u rem -> ready allv done u = false.
Proof.
  induction rem as [|w r IH]; intros best H; simpl in H; [split; [exact H | intros ? []]|].
  apply IH in H. destruct H as [Hb Hall].
  destruct (ready allv done w) eqn:Er.
  - destruct best as [b|]; [destruct (String.ltb (fst w) (fst b))|]; discriminate.
  - split; [exact Hb|]. intros u [<-|Hin]; [exact Er | apply Hall, Hin].
Qed.

Lemma min_ready_pick allv done rem u :
  min_ready allv done rem None = Some u -> In u rem /\ ready allv done u = true.
Proof. intros H. destruct (min_ready_some _ _ _ _ _ H) as [Hu|Hb]; [exact Hu | discriminate Hb]. Qed.

Lemma remove_name_In n rem x : In x (remove_name n rem) <-> In x rem /\ fst x <> n.
Proof.
  unfold remove_name. rewrite filter_In. split; intros [H1 H2]; split; try exact H1.
  - apply negb_true_iff in H2. intros E. subst. rewrite String.eqb_refl in H2. discriminate.
  - apply negb_true_iff. apply String.eqb_neq. exact H2.
Qed.

Lemma remove_name_length u rem : In u rem -> List.length (remove_name (fst u) rem) < List.length rem.
Proof. intros Hin. apply (filter_length_lt _ u); [exact Hin|]. rewrite String.eqb_refl. reflexivity. Qed.

Lemma perm_remove u rem : NoDup (map fst rem) -> In u rem ->
  Permutation rem (u :: remove_name (fst u) rem).
Proof.
  (* neither list repeats an item, and an item of rem with the name of u is u *)
  intros ND Hin. pose proof (NoDup_map_inv fst rem ND) as ND'. apply NoDup_Permutation; [exact ND' | |].
  - constructor; [|apply NoDup_filter, ND']. rewrite remove_name_In. intros [_ H]. exact (H eq_refl).
  - intros x. cbn [In]. rewrite remove_name_In. split.
    + intros Hx. destruct (string_dec (fst x) (fst u)) as [E|N]; [left | right; split; assumption].
      exact (NoDup_map_inj fst rem ND u x Hin Hx (eq_sym E)).
    + intros [<-|[Hx _]]; assumption.
Qed.

Lemma remove_name_names n rem :
  map fst (remove_name n rem) = filter (fun m => negb (String.eqb m n)) (map fst rem).
Proof.
  induction rem as [|w r IH]; [reflexivity|]. cbn [remove_name filter map].
  destruct (negb (String.eqb (fst w) n)); cbn [map]; fold (remove_name n r); rewrite IH; reflexivity.
Qed.

Lemma nodup_remove n rem : NoDup (map fst rem) -> NoDup (map fst (remove_name n rem)).
Proof. rewrite remove_name_names. apply NoDup_filter. Qed.

Lemma sort_go_sound allv : forall fuel rem done acc out,
  sort_go fuel allv rem done acc = Some out ->
  exists tail, out = rev acc ++ tail /\ scoped_order allv done tail = true /\
               (NoDup (map fst rem) -> Permutation rem tail).
Proof.
  induction fuel as [|f IH]; intros rem done acc out H; destruct rem as [|w r]; cbn [sort_go] in H.
  - injection H as <-. exists []. split; [symmetry; apply app_nil_r | split; [reflexivity | constructor]].
  - discriminate H.
  - injection H as <-. exists []. split; [symmetry; apply app_nil_r | split; [reflexivity | constructor]].
  - destruct (min_ready allv done (w :: r) None) as [u|] eqn:Em; [|discriminate].
    apply min_ready_pick in Em as [Hin Hr]. apply IH in H as [tail [-> [Hs HP]]].
    exists (u :: tail). split; [|split].
    + cbn [rev]. rewrite <- app_assoc. reflexivity.
    + apply andb_true_intro. split; [exact Hr | exact Hs].
    + intros ND. apply (perm_trans (perm_remove u _ ND Hin)), perm_skip, HP, nodup_remove, ND.
Qed.

Theorem sort_is_permutation us out :
  NoDup (map fst us) -> sort_unnestings us = Some out -> Permutation us out.
Proof. intros ND H. apply sort_go_sound in H as [tail [-> [_ HP]]]. exact (HP ND). Qed.

Theorem sort_is_scoped us out :
  sort_unnestings us = Some out -> scoped_order (map fst us) [] out = true.
Proof. intros H. apply sort_go_sound in H as [tail [-> [Hs _]]]. exact Hs. Qed.

Lemma scoped_order_remove allv n : forall out placed placed',
  scoped_order allv placed out = true -> incl placed placed' -> In n placed' ->
  scoped_order allv placed' (remove_name n out) = true.
Proof.
  induction out as [|w r IH]; intros placed placed' Hs Hp Hn; [reflexivity|].
  cbn [scoped_order] in Hs. apply andb_true_iff in Hs as [Hw Hs].
  cbn [remove_name filter]. destruct (String.eqb_spec (fst w) n) as [<-|_]; cbn [negb].
  - apply (IH (fst w :: placed)); [exact Hs | exact (incl_cons Hn Hp) | exact Hn].
  - cbn [scoped_order]. apply andb_true_intro. split.
    + rewrite forallb_forall in Hw |- *. intros v Hv. apply smem_In, Hp, smem_In, Hw, Hv.
    + apply (IH (fst w :: placed)); [exact Hs | | right; exact Hn].
      exact (incl_cons (in_eq _ _) (incl_tl _ Hp)).
Qed.

Lemma sort_go_complete allv : forall fuel rem done acc out',
  List.length rem <= fuel -> Permutation rem out' -> scoped_order allv done out' = true ->
  sort_go fuel allv rem done acc <> None.
Proof.
  induction fuel as [|f IH]; intros rem done acc out' Hlen P Hs; destruct rem as [|w r]; cbn [sort_go].
  - discriminate.
  - destruct (Nat.nle_succ_0 _ Hlen).
  - discriminate.
  - destruct (min_ready allv done (w :: r) None) as [u|] eqn:Em.
    + (* out' without the chosen item is a scoped order of what remains *)
      apply min_ready_pick in Em as [Hin _]. apply (IH _ _ _ (remove_name (fst u) out')).
      * apply Nat.lt_succ_r. exact (Nat.lt_le_trans _ _ _ (remove_name_length u _ Hin) Hlen).
      * apply Permutation_filter, P.
      * apply (scoped_order_remove _ _ _ done); [exact Hs | apply incl_tl, incl_refl | left; reflexivity].
    + (* the first item of out' is ready *)
      apply min_ready_none in Em as [_ Hall].
      destruct out' as [|v o]; [apply Permutation_sym, Permutation_nil in P; discriminate P|].
      apply andb_true_iff in Hs as [Hv _]. fold (ready allv done v) in Hv.
      rewrite (Hall v) in Hv; [discriminate Hv|].
      apply (Permutation_in _ (Permutation_sym P)). left. reflexivity.
Qed.

Theorem sort_rejects_only_cycles us out' :
  Permutation us out' -> scoped_order (map fst us) [] out' = true -> sort_unnestings us <> None.
Proof. apply sort_go_complete, le_n. Qed.

(* For items with distinct names the sort succeeds exactly when some arrangement of the same items puts every
   item after the items it depends on; the arrangement it returns is one of them. *)
Corollary sort_succeeds_iff_orderable us :
  NoDup (map fst us) ->
  (sort_unnestings us <> None <->
   exists out', Permutation us out' /\ scoped_order (map fst us) [] out' = true).
Proof.
  intros ND. split.
  - destruct (sort_unnestings us) as [out|] eqn:E; [intros _ | intros H; exfalso; apply H; reflexivity].
    exists out. split; [apply sort_is_permutation; assumption | apply sort_is_scoped; assumption].
  - intros [out' [P Hs]]. eapply sort_rejects_only_cycles; eassumption.
Qed.
