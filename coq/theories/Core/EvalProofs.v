(* Facts about the reference evaluator that hold for all programs and databases: val_eqb decides equality of values;
   disjunction and several rules ADD multiplicities (bag union = list append),
   the distributive law behind the DNF rewrite, the order of rules and of disjuncts only permutes the bag. *)
From Coq Require Import List ZArith Bool Permutation.
Import ListNotations.
From LV Require Import Util.ListFacts Core.Syntax Core.Eval.

Lemma list_nat_eqb_eq : forall a b, list_eqb Nat.eqb a b = true <-> a = b.
Proof. apply (list_eqb_eq Nat.eqb Nat.eqb_eq). intros [|] [|]; reflexivity. Qed.

Lemma val_eqb_eq : forall a b, val_eqb a b = true <-> a = b.
Proof.
  fix IH 1. intros a b. split.
  - destruct a, b; simpl; try discriminate.
    + reflexivity.
    + intros H. apply Z.eqb_eq in H. subst. reflexivity.
    + intros H. f_equal. apply list_nat_eqb_eq, H.
    + intros H. f_equal. revert l0 H. induction l as [|u l IHl]; intros [|v l0]; try discriminate; [reflexivity|].
      intros H. apply andb_true_iff in H as [H1 H2]. f_equal; [apply IH, H1 | apply IHl, H2].
    + intros H. f_equal. revert fs0 H.
      induction fs as [|[f u] fs IHf]; intros [|[g v] fs0]; try discriminate; [reflexivity|].
      intros H. apply andb_true_iff in H as [H1 H2]. apply andb_true_iff in H1 as [H0 H1].
      apply Nat.eqb_eq in H0. subst. f_equal; [f_equal; apply IH, H1 | apply IHf, H2].
  - intros <-. destruct a; simpl.
    + reflexivity.
    + apply Z.eqb_refl.
    + apply list_nat_eqb_eq. reflexivity.
    + induction l as [|u l IHl]; [reflexivity|]. rewrite (proj2 (IH u u) eq_refl), IHl. reflexivity.
    + induction fs as [|[f u] fs IHf]; [reflexivity|]. rewrite Nat.eqb_refl, (proj2 (IH u u) eq_refl), IHf. reflexivity.
Qed.

Lemma memv_In x l : memv x l = true <-> In x l.
Proof. exact (existsb_eqb_In Nat.eqb Nat.eqb_eq x l). Qed.

Lemma memv_app x a b : memv x (a ++ b) = memv x a || memv x b.
Proof. unfold memv. apply existsb_app. Qed.

Lemma bind_ok {A B} (x : res A) (f : A -> res B) b :
  bind x f = Ok b <-> exists a, x = Ok a /\ f a = Ok b.
Proof.
  destruct x as [a|c]; cbn [bind].
  - split; [intros H; exists a; auto | intros [a' [[= <-] H]]; exact H].
  - split; [discriminate | intros [a' [[=] _]]].
Qed.

Lemma mapM_app {A B} (f : A -> res B) l1 l2 :
  mapM f (l1 ++ l2) = bind (mapM f l1) (fun a => bind (mapM f l2) (fun b => Ok (a ++ b))).
Proof.
  induction l1 as [|x l1 IH]; simpl.
  - destruct (mapM f l2); reflexivity.
  - destruct (f x) as [y|c]; simpl; [|reflexivity].
    rewrite IH. destruct (mapM f l1) as [a|c]; simpl; [|reflexivity].
    destruct (mapM f l2); reflexivity.
Qed.

Lemma flat_mapM_app {A B} (f : A -> res (list B)) l1 l2 :
  flat_mapM f (l1 ++ l2) =
  bind (flat_mapM f l1) (fun a => bind (flat_mapM f l2) (fun b => Ok (a ++ b))).
Proof.
  unfold flat_mapM. rewrite mapM_app.
  destruct (mapM f l1) as [a|c]; simpl; [|reflexivity].
  destruct (mapM f l2) as [b|c]; simpl; [|reflexivity].
  rewrite concat_app. reflexivity.
Qed.

Lemma flat_mapM_one {A B} (f : A -> res (list B)) x : flat_mapM f [x] = f x.
Proof. unfold flat_mapM. cbn. destruct (f x); cbn; rewrite ?app_nil_r; reflexivity. Qed.

Lemma flat_mapM_cons {A B} (f : A -> res (list B)) x l :
  flat_mapM f (x :: l) = bind (f x) (fun a => bind (flat_mapM f l) (fun b => Ok (a ++ b))).
Proof. rewrite <- (flat_mapM_one f x). exact (flat_mapM_app f [x] l). Qed.

Lemma mapM_ok_length {A B} (f : A -> res B) l r : mapM f l = Ok r -> length r = length l.
Proof.
  revert r. induction l as [|x l IH]; cbn [mapM]; intros r H.
  - injection H as <-. reflexivity.
  - apply bind_ok in H as [y [_ H]]. apply bind_ok in H as [ys [E [= <-]]].
    cbn [length]. f_equal. exact (IH ys E).
Qed.

Lemma mapM_map {A B C} (g : A -> B) (f : B -> res C) l : mapM f (map g l) = mapM (fun x => f (g x)) l.
Proof. induction l as [|x l IH]; cbn [map mapM]; [reflexivity|]. rewrite IH. reflexivity. Qed.

Lemma flat_mapM_concat {A B} (f : A -> res (list B)) ls :
  flat_mapM f (concat ls) = flat_mapM (flat_mapM f) ls.
Proof.
  induction ls as [|l ls IH]; [reflexivity|].
  cbn [concat]. rewrite flat_mapM_app, flat_mapM_cons, IH. reflexivity.
Qed.

(* Two failures count as equal whatever their codes: which error is met first depends on the order. *)
Definition same_bag {A} (x y : res (list A)) : Prop :=
  match x, y with
  | Ok a, Ok b => Permutation a b
  | Fail _, Fail _ => True
  | _, _ => False
  end.

Lemma flat_mapM_perm {A B} (f : A -> res (list B)) l l' :
  Permutation l l' -> same_bag (flat_mapM f l) (flat_mapM f l').
Proof.
  unfold same_bag. induction 1 as [|x l l' P IH|x y l|l l' l'' P1 IH1 P2 IH2]; rewrite ?flat_mapM_cons.
  - constructor.
  - destruct (f x); [|exact I].
    destruct (flat_mapM f l), (flat_mapM f l'); try exact IH. apply Permutation_app_head, IH.
  - destruct (f y), (f x), (flat_mapM f l); try exact I. cbn [bind].
    rewrite !app_assoc. apply Permutation_app_tail, Permutation_app_comm.
  - destruct (flat_mapM f l), (flat_mapM f l'), (flat_mapM f l''); try exact I; try contradiction.
    eapply perm_trans; eassumption.
Qed.

Lemma dnf_PAnd_cons p ps :
  dnf (PAnd (p :: ps)) = flat_map (fun d1 => map (app d1) (dnf (PAnd ps))) (dnf p).
Proof. reflexivity. Qed.

Lemma dnf_PAnd_one p : dnf (PAnd [p]) = dnf p.
Proof.
  rewrite dnf_PAnd_cons. cbn [dnf map]. induction (dnf p) as [|d l IH]; cbn [flat_map app]; [reflexivity|].
  rewrite app_nil_r, IH. reflexivity.
Qed.

Lemma dnf_POr_cons p ps : dnf (POr (p :: ps)) = dnf p ++ dnf (POr ps).
Proof. reflexivity. Qed.

Lemma dnf_POr ps : dnf (POr ps) = concat (map dnf ps).
Proof. induction ps as [|q l IH]; [reflexivity|]. rewrite dnf_POr_cons, IH. reflexivity. Qed.

Lemma flat_map_app_perm {A B} (f g : A -> list B) l :
  Permutation (flat_map (fun x => f x ++ g x) l) (flat_map f l ++ flat_map g l).
Proof.
  induction l as [|x l IH]; simpl; [constructor|].
  rewrite <- !app_assoc. apply Permutation_app_head.
  eapply perm_trans; [apply Permutation_app_head, IH|].
  rewrite !app_assoc. apply Permutation_app_tail, Permutation_app_comm.
Qed.

(* the distributive law used by the parser's DNF rewrite: (p , (q1 | ... | qn)) has the disjuncts of
   (p, q1 | ... | p, qn), up to their order *)
Theorem dnf_distributes_n p qs :
  Permutation (dnf (PAnd [p; POr qs])) (dnf (POr (map (fun q => PAnd [p; q]) qs))).
Proof.
  rewrite dnf_PAnd_cons, dnf_PAnd_one.
  induction qs as [|q qs IH]; cbn [map].
  - cbn [dnf map]. induction (dnf p) as [|d l IH]; [constructor | cbn [flat_map app]; exact IH].
  - rewrite !dnf_POr_cons, dnf_PAnd_cons, dnf_PAnd_one.
    rewrite (flat_map_ext _ (fun d1 => map (app d1) (dnf q) ++ map (app d1) (dnf (POr qs))))
      by (intros; apply map_app).
    eapply perm_trans; [apply flat_map_app_perm | apply Permutation_app_head, IH].
Qed.

Theorem dnf_distributes p q1 q2 :
  Permutation (dnf (PAnd [p; POr [q1; q2]])) (dnf (POr [PAnd [p; q1]; PAnd [p; q2]])).
Proof. exact (dnf_distributes_n p [q1; q2]). Qed.

Theorem eval_rule_POr P D h dis ps :
  eval_rule P D {| r_head := h; r_distinct := dis; r_body := POr ps |} =
  flat_mapM (fun p => eval_rule P D {| r_head := h; r_distinct := dis; r_body := p |}) ps.
Proof.
  unfold eval_rule. cbn [r_body r_head]. rewrite dnf_POr, flat_mapM_concat.
  unfold flat_mapM at 1. rewrite mapM_map. reflexivity.
Qed.

Theorem eval_rule_disjunction P D h dis b1 b2 :
  eval_rule P D {| r_head := h; r_distinct := dis; r_body := POr [b1; b2] |} =
  bind (eval_rule P D {| r_head := h; r_distinct := dis; r_body := b1 |}) (fun r1 =>
  bind (eval_rule P D {| r_head := h; r_distinct := dis; r_body := b2 |}) (fun r2 => Ok (r1 ++ r2))).
Proof. rewrite eval_rule_POr, flat_mapM_cons, flat_mapM_one. reflexivity. Qed.

Definition plain (rs : list rule) : Prop :=
  forall r, In r rs -> r_distinct r = false /\ head_aggs (r_head r) = [].

Lemma plain_flags rs : plain rs ->
  existsb r_distinct rs = false /\
  existsb (fun r => match head_aggs (r_head r) with [] => false | _ => true end) rs = false.
Proof.
  induction rs as [|r rs IH]; intros H; [split; reflexivity|].
  cbn [existsb]. destruct (H r (or_introl eq_refl)) as [-> ->].
  apply IH. intros r' Hin. apply H. right. exact Hin.
Qed.

Lemma eval_pdef_plain P D n k rs : plain rs ->
  eval_pdef P D {| p_name := n; p_kind := k; p_rules := rs |} = flat_mapM (eval_rule P D) rs.
Proof.
  intros H. destruct (plain_flags rs H) as [E1 E2]. unfold eval_pdef. cbn [p_rules].
  rewrite E1, E2. simpl. destruct (flat_mapM (eval_rule P D) rs); reflexivity.
Qed.

Theorem eval_pdef_rules_add P D n k rs1 rs2 : plain rs1 -> plain rs2 ->
  eval_pdef P D {| p_name := n; p_kind := k; p_rules := rs1 ++ rs2 |} =
  bind (eval_pdef P D {| p_name := n; p_kind := k; p_rules := rs1 |}) (fun a =>
  bind (eval_pdef P D {| p_name := n; p_kind := k; p_rules := rs2 |}) (fun b => Ok (a ++ b))).
Proof.
  intros H1 H2.
  assert (H : plain (rs1 ++ rs2)).
  { intros r Hin. apply in_app_or in Hin as [Hin|Hin]; auto. }
  rewrite !eval_pdef_plain by assumption. apply flat_mapM_app.
Qed.

Theorem rules_as_disjunction P D n k h b1 b2 :
  eval_pdef P D {| p_name := n; p_kind := k;
                   p_rules := [ {| r_head := h; r_distinct := false; r_body := b1 |};
                                {| r_head := h; r_distinct := false; r_body := b2 |} ] |} =
  eval_pdef P D {| p_name := n; p_kind := k;
                   p_rules := [ {| r_head := h; r_distinct := false; r_body := POr [b1; b2] |} ] |}.
Proof.
  unfold eval_pdef. cbn [p_rules existsb forallb r_distinct r_head orb andb negb].
  destruct (match head_aggs h with [] => false | _ :: _ => true end); [reflexivity|].
  rewrite flat_mapM_one, eval_rule_POr. reflexivity.
Qed.

Theorem eval_pdef_rule_order P D n k rs rs' : plain rs -> Permutation rs rs' ->
  same_bag (eval_pdef P D {| p_name := n; p_kind := k; p_rules := rs |})
           (eval_pdef P D {| p_name := n; p_kind := k; p_rules := rs' |}).
Proof.
  intros H Pm.
  assert (H' : plain rs').
  { intros r Hin. apply H. eapply Permutation_in; [apply Permutation_sym, Pm | exact Hin]. }
  rewrite !eval_pdef_plain by assumption. apply flat_mapM_perm, Pm.
Qed.

Lemma map_perm {A B} (f : A -> B) l l' : Permutation l l' -> Permutation (map f l) (map f l').
Proof. apply Permutation_map. Qed.

Theorem eval_rule_disjunct_order P D h dis ps ps' : Permutation ps ps' ->
  same_bag (eval_rule P D {| r_head := h; r_distinct := dis; r_body := POr ps |})
           (eval_rule P D {| r_head := h; r_distinct := dis; r_body := POr ps' |}).
Proof. intros H. rewrite !eval_rule_POr. apply flat_mapM_perm, H. Qed.
