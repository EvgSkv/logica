(* Facts about the comparator of the correspondence runs (Core/Check.v): bringing an evaluator row to the column
   order of the returned header only picks cells of that row: the result lists exactly the header, or is the row itself. *)
From Coq Require Import List Arith.
Import ListNotations.
From LV Require Import Core.Syntax Core.Eval Core.Check.

Lemma lookup_cell_spec (f : field) (r : row) (c : field * val) :
  lookup_cell f r = Some c -> fst c = f /\ In c r.
Proof.
  induction r as [|x r IH]; cbn [lookup_cell]; intro H; [discriminate|].
  destruct (Nat.eqb (fst x) f) eqn:E.
  - injection H as <-. apply Nat.eqb_eq in E. split; [exact E | now left].
  - destruct (IH H) as [H1 H2]. split; [exact H1 | now right].
Qed.

Definition align_fold (header : list field) (r : row) : option row :=
  fold_right (fun f acc => match acc, lookup_cell f r with
                           | Some l, Some c => Some (c :: l)
                           | _, _ => None
                           end) (Some []) header.

Lemma align_row_eq (header : list field) (r : row) :
  align_row header r =
  if Nat.eqb (length r) (length header)
  then match align_fold header r with Some r' => r' | None => r end else r.
Proof. reflexivity. Qed.

Lemma align_fold_cons (f : field) (hs : list field) (r : row) :
  align_fold (f :: hs) r = match align_fold hs r, lookup_cell f r with
                           | Some l, Some c => Some (c :: l)
                           | _, _ => None
                           end.
Proof. reflexivity. Qed.

Lemma align_fold_spec (header : list field) (r r' : row) :
  align_fold header r = Some r' -> map fst r' = header /\ incl r' r.
Proof.
  revert r'. induction header as [|f hs IH]; intros r' H.
  - injection H as <-. split; [reflexivity | intros x []].
  - rewrite align_fold_cons in H.
    destruct (align_fold hs r) as [l|]; [|discriminate].
    destruct (lookup_cell f r) as [c|] eqn:Ec; [|discriminate].
    injection H as <-. destruct (IH l eq_refl) as [Hm Hi].
    destruct (lookup_cell_spec _ _ _ Ec) as [Hf Hin].
    split.
    + cbn [map]. now rewrite Hf, Hm.
    + intros x [<-|Hx]; [exact Hin | now apply Hi].
Qed.

Theorem align_row_spec (header : list field) (r : row) :
  (map fst (align_row header r) = header /\ incl (align_row header r) r) \/ align_row header r = r.
Proof.
  rewrite align_row_eq. destruct (Nat.eqb (length r) (length header)); [|now right].
  destruct (align_fold header r) as [r'|] eqn:E; [|now right].
  left. now apply align_fold_spec.
Qed.

Lemma align_fold_weaken (hs : list field) (c : field * val) (r : row) :
  ~ In (fst c) hs -> align_fold hs (c :: r) = align_fold hs r.
Proof.
  induction hs as [|f hs IH]; intro H; [reflexivity|].
  rewrite !align_fold_cons, IH by (intro; apply H; now right).
  cbn [lookup_cell]. destruct (Nat.eqb_spec (fst c) f) as [E|_]; [|reflexivity].
  exfalso. apply H. now left.
Qed.

Theorem align_row_id (r : row) : NoDup (map fst r) -> align_row (map fst r) r = r.
Proof.
  intro H. rewrite align_row_eq, map_length, Nat.eqb_refl.
  assert (E : align_fold (map fst r) r = Some r).
  { induction r as [|c r IH]; [reflexivity|].
    cbn [map] in *. inversion H as [|? ? Hn Hd]; subst.
    rewrite align_fold_cons, align_fold_weaken, (IH Hd) by exact Hn.
    cbn [lookup_cell]. now rewrite Nat.eqb_refl. }
  now rewrite E.
Qed.
